(* ServerTrace.v -- the shape of EVERY server-connection trace, for arbitrary input, faults, service and write /
   flush behaviour (C07 without the well-formed stream of [process_serves]), as the inductive [Trace]: every service
   invocation is followed at once by the bytes of ONE reply frame under a header with the unit id the service was
   given, or by nothing when the service declines; a reply that cannot be encoded or written ends the connection with
   one report (or leaves it blocked in the write), at most a prefix of that frame written.
   The last part carries the shape over to many connections at once (C18), whence the import of AcceptProofs. *)
From TM Require Import Base Framed Client Server FramedMore ServerProofs AcceptProofs.

(* the service's answer to the request at hand, as [Server.process] and [served] write it *)
Definition hd_reply (svc : list svc_reply) : svc_reply := match svc with [] => SDecline | x :: _ => x end.
Lemma hd_reply_hd svc : hd_reply svc = hd SDecline svc.
Proof. reflexivity. Qed.

Definition terminal (e : tev) : Prop :=
  match e with TReport _ | TClosed | TWaiting | TPanic | TOutOfFuel => True | _ => False end.

(* the relation [RtuProofs.prefix] *)
Definition is_prefix (a b : list N) : Prop := exists y, b = a ++ y.

Inductive Trace (p : proto) (m : mode) : list svc_reply -> list tev -> Prop :=
| T_end svc e : terminal e -> Trace p m svc [e]
| T_decline svc s req t :
    hd_reply svc = SDecline -> Trace p m (tl svc) t -> Trace p m svc (TCall s req :: t)
| T_answer svc s req t h rr f :
    snd h = s -> reply_of req (hd_reply svc) = Some rr -> server_enc p m h rr = Val f ->
    Trace p m (tl svc) t -> Trace p m svc (TCall s req :: wrote f ++ t)
| T_cut svc s req h rr f pre e :
    snd h = s -> reply_of req (hd_reply svc) = Some rr -> server_enc p m h rr = Val f ->
    is_prefix pre f -> terminal e -> Trace p m svc (TCall s req :: wrote pre ++ [e])
| T_unencodable svc s req h rr e :
    snd h = s -> reply_of req (hd_reply svc) = Some rr -> (forall f, server_enc p m h rr <> Val f) ->
    terminal e -> Trace p m svc [TCall s req; e].

Lemma send_on_empty frame wq0 fq0 r w1 bg1 pn :
  send frame (mkW [] wq0 fq0 []) None = (r, w1, bg1, pn) ->
  match frame with
  | Val f => is_prefix (accepted w1) f /\ (r = SOk -> pn = false -> accepted w1 = f /\ wbuf w1 = [])
  | _ => accepted w1 = []
  end.
Proof.
  intros H. destruct (send_conserve _ _ _ _ _ _ _ H) as (fr & Hfr & Hc & Hok & _). cbn [accepted wbuf app] in Hc.
  (* [fr] is what was encoded, if anything was; it is all that [w1] holds *)
  assert (Hnil : fr = [] -> accepted w1 = []) by (intros ->; apply app_eq_nil in Hc; tauto).
  destruct frame as [f|k|]; try (destruct Hfr as [E|E]; [exact (Hnil E)|discriminate]).
  split.
  - destruct Hfr as [E|[= <-]]; [rewrite (Hnil E); exists f; reflexivity|exists (wbuf w1); symmetry; exact Hc].
  - intros Hr Hp. destruct (Hok Hr Hp) as [[= <-] Hw]. rewrite Hw, app_nil_r in Hc. auto.
Qed.

Theorem process_trace p m : forall fuel r w q svc, wbuf w = [] -> Trace p m svc (process fuel p m r w q svc).
Proof.
  apply (process_ind p m (fun _ _ w _ svc t => wbuf w = [] -> Trace p m svc t)).
  - intros. apply T_end. exact I.
  - intros fuel r w q svc nr r1 q1 bg _ _ _. apply T_end. destruct nr; exact I.
  - intros fuel r w q svc h req r1 q1 bg t _ Hr IH Hw. apply T_decline; [|exact (IH Hw)].
    rewrite hd_reply_hd. destruct (hd SDecline svc); [discriminate|reflexivity|discriminate].
  - intros fuel r w q svc h req r1 q1 bg rr sr w1 bg1 pn _ Hr Hs.
    rewrite <- hd_reply_hd in Hr.
    destruct (send_end sr pn) as [e|] eqn:He.
    + intros Hw. rewrite Hw in Hs. pose proof (send_on_empty _ _ _ _ _ _ _ Hs) as Hse.
      assert (Hte : terminal e) by (destruct pn, sr; try discriminate; injection He as <-; exact I).
      destruct (server_enc p m h rr) as [f|k|] eqn:Hf.
      1: exact (T_cut p m svc _ req h rr f _ e eq_refl Hr Hf (proj1 Hse) Hte).
      all: rewrite Hse; apply (T_unencodable p m svc _ req h rr e eq_refl Hr); [congruence|exact Hte].
    + (* the whole frame went out and the write buffer is empty again *)
      intros t IH Hw. assert (sr = SOk /\ pn = false) as [-> ->] by (destruct pn, sr; try discriminate; auto).
      rewrite Hw in Hs. destruct (send_conserve _ _ _ _ _ _ _ Hs) as (f & _ & Hc & Hok & _).
      destruct (Hok eq_refl eq_refl) as [Hf Hwb]. cbn [accepted wbuf app] in Hc. rewrite Hwb, app_nil_r in Hc. rewrite Hc.
      exact (T_answer p m svc _ req t h rr f eq_refl Hr Hf (IH Hwb)).
Qed.

Corollary serve_conn_trace p m q wq0 fq0 svc : Trace p m svc (serve_conn p m q wq0 fq0 svc).
Proof. unfold serve_conn. apply process_trace. reflexivity. Qed.

(* the bytes written over the life of the connection, [concat (map Run.tev_wrote t)].  By the shape they are the reply
   frames of the answered invocations in order, the last possibly cut short; [trace_written] keeps of that only that
   they are encoded reply frames laid end to end, not whose. *)
Fixpoint written (t : list tev) : list N :=
  match t with
  | [] => []
  | TWrote b :: t' => b ++ written t'
  | _ :: t' => written t'
  end.

Lemma written_app a b : written (a ++ b) = written a ++ written b.
Proof. induction a as [|e a IH]; [reflexivity|]. destruct e; cbn [app written]; rewrite IH, ?app_assoc; reflexivity. Qed.
Lemma written_wrote f : written (wrote f) = f.
Proof. destruct f; [reflexivity|]. cbn. rewrite app_nil_r. reflexivity. Qed.
Lemma written_terminal e : terminal e -> written [e] = [].
Proof. destruct e; cbn; tauto. Qed.

Theorem trace_written p m svc t : Trace p m svc t ->
  exists fs last, is_prefix (written t) (concat fs ++ last)
    /\ (forall f, In f (fs ++ [last]) -> f = [] \/ exists h rr, server_enc p m h rr = Val f).
Proof.
  assert (Hnone : forall t0, written t0 = [] -> exists fs last, is_prefix (written t0) (concat fs ++ last)
            /\ (forall f, In f (fs ++ [last]) -> f = [] \/ exists h rr, server_enc p m h rr = Val f)).
  { intros t0 ->. exists [], []. split; [exists []; reflexivity|]. intros f [<-|[]]. left. reflexivity. }
  induction 1 as [svc e He|svc s req t Hd Ht IH|svc s req t h rr f Hs Hr He Ht IH|svc s req h rr f pre e Hs Hr He Hp Hterm
                 |svc s req h rr e Hs Hr He Hterm].
  - exact (Hnone _ (written_terminal e He)).
  - exact IH.
  - destruct IH as (fs & last & [y Hp] & Hall). exists (f :: fs), last. cbn [written]. rewrite written_app, written_wrote.
    split.
    + exists y. cbn [concat]. rewrite <- !app_assoc. f_equal. exact Hp.
    + intros g [<-|Hg]; [right; eauto|apply Hall; exact Hg].
  - exists [], f. cbn [written concat app]. rewrite written_app, written_wrote, (written_terminal e Hterm), app_nil_r.
    split; [exact Hp|]. intros g [<-|[]]. right. eauto.
  - exact (Hnone [TCall s req; e] (written_terminal e Hterm)).
Qed.

(* many connections at once (C18), each on a transport of its own (write script [wqs c], flush script [fqs c]): its
   trace has the shape above whatever the schedule, and the traffic of the others does not change it *)
Definition conn_trace_w (p : proto) (m : mode) (svc : N -> list svc_reply) (wqs : N -> list wev) (fqs : N -> list fev)
           (s : schedule) (c : N) : list tev :=
  serve_conn p m (grun s c) (wqs c) (fqs c) (svc c).

Theorem conn_trace_w_default p m svc s c : conn_trace_w p m svc (fun _ => []) (fun _ => []) s c = conn_trace p m svc s c.
Proof. reflexivity. Qed.

Theorem noninterference_w p m svc wqs fqs s1 s2 c :
  events_of c s1 = events_of c s2 -> conn_trace_w p m svc wqs fqs s1 c = conn_trace_w p m svc wqs fqs s2 c.
Proof. intros H. unfold conn_trace_w. rewrite !grun_projection, H. reflexivity. Qed.

Theorem every_connection_trace p m svc wqs fqs s c : Trace p m (svc c) (conn_trace_w p m svc wqs fqs s c).
Proof. apply serve_conn_trace. Qed.

Corollary every_connection_written p m svc wqs fqs s c :
  exists fs last, is_prefix (written (conn_trace_w p m svc wqs fqs s c)) (concat fs ++ last)
    /\ (forall f, In f (fs ++ [last]) -> f = [] \/ exists h rr, server_enc p m h rr = Val f).
Proof. eapply trace_written. apply every_connection_trace. Qed.
