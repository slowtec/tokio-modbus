(* The client call.  [call_eq] / [call_is] describe [Client.call] once, by its parts; everything else, here and in
   other files, goes through them instead of unfolding [call]: the outcome classified by the reply consumed
   (C06, C02), what a call leaves of the state (C10, C12, C13, C16).  Then disconnect (C15). *)
From Coq Require Import Lia.
From TM Require Import Base Frame Pdu RtuCodec Framed Client BaseLemmas FramedMore.

(* the header the call stamps on its request *)
Definition req_hdr (p : proto) (st : cstate) : hdr :=
  (match p with TCP => next_tid st | RTU => 0 end, unit_id st).

(* framed.read_buffer_mut().clear() *)
Definition cleared (r : rstate) : rstate := mkR [] (reof r) (rreadable r) (rerrored r).

(* the reply item the call consumed, if it got that far *)
Definition call_reply (p : proto) (m : mode) (st : cstate) (req : request) (bg : budget) : option (hdr * rsp_result) :=
  if negb (framed st) then None else
  match send (client_enc p m (req_hdr p st) req) (wio_ st) bg with
  | (SOk, w, bg1, false) =>
      match next (client_dec p) (cleared (rst st)) (rq st) bg1 with
      | (NItem i, _, _, _) => Some i
      | _ => None
      end
  | _ => None
  end.

Definition classify (p : proto) (st : cstate) (req : request) (i : hdr * rsp_result) : call_result :=
  let '(rh, rr) := i in
  if negb (hdr_eqb (req_hdr p st) rh) then CRHeaderMismatch rr
  else if negb (fc_value (req_fc req) =? fc_value (rr_fc rr)) then CRFcMismatch (req_fc req) rr
  else match rr with RROk r => CROk r | RRExc e => CRExc (exr_exception e) end.

Definition is_success (c : call_result) : bool :=
  match c with CROk _ | CRExc _ => true | _ => false end.

Lemma hdr_eqb_eq a b : hdr_eqb a b = true <-> a = b.
Proof.
  destruct a as [a1 a2], b as [b1 b2]. unfold hdr_eqb. cbn [fst snd]. rewrite andb_true_iff, !N.eqb_eq.
  split; [intros [-> ->]|intros [= -> ->]]; auto.
Qed.
Lemma hdr_eqb_refl h : hdr_eqb h h = true.
Proof. apply hdr_eqb_eq. reflexivity. Qed.

Definition tid_after (p : proto) (st : cstate) : N :=
  match p with TCP => (next_tid st + 1) mod 65536 | RTU => next_tid st end.

Definition unsent (sr : sres) (pn : bool) : option call_result :=
  if pn then Some CRPanic else
  match sr with SOk => None | SErr k => Some (CRTransport k) | SWait => Some CRWait | SAbandon => Some CRAbandoned end.

(* for a receive that delivers neither a reply nor an error *)
Definition unanswered {I} (nr : nres I) : call_result :=
  match nr with NEnd => CRTransport KBrokenPipe | NWait => CRWait | NAbandon => CRAbandoned | _ => CRPanic end.

(* what a call makes of its receive: the outcome; the state of the framing layer, the latch cleared again by the extra
   poll after an error; the reply consumed *)
Definition read_outcome (p : proto) (st : cstate) (req : request) (nr : nres (hdr * rsp_result)) : call_result :=
  match nr with NItem i => classify p st req i | NErr k => CRTransport k | _ => unanswered nr end.
Definition unlatch {I} (nr : nres I) (r : rstate) : rstate :=
  match nr with NErr _ => mkR (rbuf r) (reof r) false false | _ => r end.
Definition item_of {I} (nr : nres I) : option I := match nr with NItem i => Some i | _ => None end.

Lemma call_eq p m st req bg : call p m st req bg =
  if negb (framed st) then (CRTransport KNotConnected, upd st (rst st) (wio_ st) (rq st) (tid_after p st)) else
  let '(sr, w, bg1, pn) := send (client_enc p m (req_hdr p st) req) (wio_ st) bg in
  match unsent sr pn with
  | Some c => (c, upd st (cleared (rst st)) w (rq st) (tid_after p st))
  | None =>
      let '(nr, r1, q1, _) := next (client_dec p) (cleared (rst st)) (rq st) bg1 in
      (read_outcome p st req nr, upd st (unlatch nr r1) w q1 (tid_after p st))
  end.
Proof.
  unfold call, classify. destruct (framed st); cbn [negb]; [|reflexivity].
  destruct (send _ (wio_ st) bg) as [[[[] w] bg1] []]; try reflexivity. cbn [unsent].
  destruct (next _ _ (rq st) bg1) as [[[[[rh rr]|k| | | |] r1] q1] bg2] eqn:Hn; try reflexivity.
  - cbn. destruct (negb (hdr_eqb _ rh)); [reflexivity|]. destruct (negb _); [reflexivity|]. destruct rr; reflexivity.
  - (* the extra poll finds the latch set by the error and clears it *)
    rewrite (next_clears_latch _ r1 q1 (Some O) (next_latch _ _ _ _ _ _ _ _ Hn)). reflexivity.
Qed.

Lemma call_reply_eq p m st req bg : call_reply p m st req bg =
  if negb (framed st) then None else
  let '(sr, w, bg1, pn) := send (client_enc p m (req_hdr p st) req) (wio_ st) bg in
  match unsent sr pn with
  | Some _ => None
  | None => match next (client_dec p) (cleared (rst st)) (rq st) bg1 with (NItem i, _, _, _) => Some i | _ => None end
  end.
Proof. unfold call_reply. destruct (negb (framed st)); [reflexivity|]. destruct (send _ _ bg) as [[[[] w] bg1] []]; reflexivity. Qed.

(* The three stages a call can end in: result, state left, reply consumed ([call_reply]). *)
Inductive call_spec (p : proto) (m : mode) (st : cstate) (req : request) (bg : budget)
  : call_result -> cstate -> option (hdr * rsp_result) -> Prop :=
| Call_unconnected : framed st = false ->
    call_spec p m st req bg (CRTransport KNotConnected) (upd st (rst st) (wio_ st) (rq st) (tid_after p st)) None
| Call_unsent sr w bg1 pn c : framed st = true ->
    send (client_enc p m (req_hdr p st) req) (wio_ st) bg = (sr, w, bg1, pn) -> unsent sr pn = Some c ->
    call_spec p m st req bg c (upd st (cleared (rst st)) w (rq st) (tid_after p st)) None
| Call_read w bg1 nr r1 q1 bg2 : framed st = true ->
    send (client_enc p m (req_hdr p st) req) (wio_ st) bg = (SOk, w, bg1, false) ->
    next (client_dec p) (cleared (rst st)) (rq st) bg1 = (nr, r1, q1, bg2) ->
    call_spec p m st req bg (read_outcome p st req nr) (upd st (unlatch nr r1) w q1 (tid_after p st)) (item_of nr).

Lemma call_is p m st req bg :
  call_spec p m st req bg (fst (call p m st req bg)) (snd (call p m st req bg)) (call_reply p m st req bg).
Proof.
  rewrite call_eq, call_reply_eq. destruct (framed st) eqn:Hf; cbn [negb]; [|constructor; exact Hf].
  destruct (send _ (wio_ st) bg) as [[[sr w] bg1] pn] eqn:Hs.
  destruct (unsent sr pn) as [c|] eqn:Hu; [eapply Call_unsent; eauto|].
  assert (sr = SOk /\ pn = false) as [-> ->] by (destruct pn, sr; try discriminate; auto).
  destruct (next _ _ (rq st) bg1) as [[[nr r1] q1] bg2] eqn:Hn. exact (Call_read p m st req bg w bg1 nr r1 q1 bg2 Hf Hs Hn).
Qed.

(* with a reply the outcome is [classify] of it; without one it is neither a success nor a protocol error *)
Theorem call_classify p m st req bg :
  match call_reply p m st req bg with
  | Some i => fst (call p m st req bg) = classify p st req i
  | None => match fst (call p m st req bg) with
            | CROk _ | CRExc _ | CRHeaderMismatch _ | CRFcMismatch _ _ => False
            | _ => True
            end
  end.
Proof.
  destruct (call_is p m st req bg) as [|sr w bg1 pn c _ _ Hu|w bg1 nr].
  - exact I.
  - destruct pn, sr; try discriminate; injection Hu as <-; exact I.
  - destruct nr; first [reflexivity|exact I].
Qed.

Lemma classify_cases p st req rh rr :
  (rh <> req_hdr p st /\ classify p st req (rh, rr) = CRHeaderMismatch rr) \/
  (rh = req_hdr p st /\ fc_value (rr_fc rr) <> fc_value (req_fc req) /\ classify p st req (rh, rr) = CRFcMismatch (req_fc req) rr) \/
  (rh = req_hdr p st /\ fc_value (rr_fc rr) = fc_value (req_fc req)
   /\ classify p st req (rh, rr) = match rr with RROk r => CROk r | RRExc e => CRExc (exr_exception e) end).
Proof.
  unfold classify. destruct (hdr_eqb (req_hdr p st) rh) eqn:Hh; cbn [negb].
  - apply hdr_eqb_eq in Hh. right.
    destruct (N.eqb_spec (fc_value (req_fc req)) (fc_value (rr_fc rr))) as [E|E]; [right|left]; auto.
  - left. split; [|reflexivity]. intros ->. rewrite hdr_eqb_refl in Hh. discriminate.
Qed.

Lemma call_reply_cases p m st req bg rh rr : call_reply p m st req bg = Some (rh, rr) ->
  (rh <> req_hdr p st /\ fst (call p m st req bg) = CRHeaderMismatch rr) \/
  (rh = req_hdr p st /\ fc_value (rr_fc rr) <> fc_value (req_fc req) /\ fst (call p m st req bg) = CRFcMismatch (req_fc req) rr) \/
  (rh = req_hdr p st /\ fc_value (rr_fc rr) = fc_value (req_fc req)
   /\ fst (call p m st req bg) = match rr with RROk r => CROk r | RRExc e => CRExc (exr_exception e) end).
Proof. intros Hr. pose proof (call_classify p m st req bg) as H. rewrite Hr in H. rewrite H. apply classify_cases. Qed.

Theorem call_success_only_if p m st req bg :
  is_success (fst (call p m st req bg)) = true ->
  exists rr, call_reply p m st req bg = Some (req_hdr p st, rr)
             /\ fc_value (rr_fc rr) = fc_value (req_fc req)
             /\ fst (call p m st req bg) = match rr with RROk r => CROk r | RRExc e => CRExc (exr_exception e) end.
Proof.
  intros Hs. destruct (call_reply p m st req bg) as [[rh rr]|] eqn:Hr.
  - destruct (call_reply_cases p m st req bg rh rr Hr) as [[_ E]|[(_ & _ & E)|(-> & Hfc & E)]];
      rewrite E in Hs; [discriminate..|]. eauto.
  - pose proof (call_classify p m st req bg) as H. rewrite Hr in H.
    destruct (fst (call p m st req bg)); try discriminate; contradiction.
Qed.

Theorem call_header_mismatch p m st req bg rh rr :
  call_reply p m st req bg = Some (rh, rr) -> rh <> req_hdr p st ->
  fst (call p m st req bg) = CRHeaderMismatch rr.
Proof.
  intros Hr Hne. destruct (call_reply_cases p m st req bg rh rr Hr) as [[_ E]|[[E _]|[E _]]]; [exact E|contradiction..].
Qed.

Theorem call_fc_mismatch p m st req bg rr :
  call_reply p m st req bg = Some (req_hdr p st, rr) -> fc_value (rr_fc rr) <> fc_value (req_fc req) ->
  fst (call p m st req bg) = CRFcMismatch (req_fc req) rr.
Proof.
  intros Hr Hne. destruct (call_reply_cases p m st req bg _ rr Hr) as [[E _]|[(_ & _ & E)|(_ & E & _)]]; [elim E; reflexivity|exact E|contradiction].
Qed.

(* the answering reply (same header, numerically same code) is returned as it is (C02) *)
Theorem call_returns_answer p m st req bg rr :
  call_reply p m st req bg = Some (req_hdr p st, rr) -> fc_value (rr_fc rr) = fc_value (req_fc req) ->
  fst (call p m st req bg) = match rr with RROk r => CROk r | RRExc e => CRExc (exr_exception e) end.
Proof.
  intros Hr He. destruct (call_reply_cases p m st req bg _ rr Hr) as [[E _]|[(_ & E & _)|(_ & _ & E)]]; [elim E; reflexivity|contradiction|exact E].
Qed.

Lemma call_state p m st req bg : exists r w q, snd (call p m st req bg) = upd st r w q (tid_after p st).
Proof. destruct (call_is p m st req bg); eauto. Qed.

Lemma call_keeps_connection p m st req bg : framed (snd (call p m st req bg)) = framed st /\ shutdowns (snd (call p m st req bg)) = shutdowns st.
Proof. destruct (call_state p m st req bg) as (r & w & q & ->). auto. Qed.

Theorem call_tid_advances m st req bg :
  next_tid (snd (call TCP m st req bg)) = (next_tid st + 1) mod 65536.
Proof. destruct (call_state TCP m st req bg) as (r & w & q & ->). reflexivity. Qed.

Lemma mod_distinct a i j : i < j -> j < i + 65536 -> (a + i) mod 65536 <> (a + j) mod 65536.
Proof. lia. Qed.

(* no error latched in the framing layer: the state in which a call can deliver a reply (C12) *)
Definition clean (st : cstate) : Prop := rerrored (rst st) = false.

Theorem call_preserves_clean p m st req bg : clean st -> clean (snd (call p m st req bg)).
Proof.
  unfold clean. intros Hc.
  destruct (call_is p m st req bg) as [| |w bg1 nr r1 q1 bg2 _ _ Hn]; cbn; auto.
  destruct nr; try reflexivity; apply (next_unlatched _ _ _ _ _ _ _ _ Hn); discriminate.
Qed.

Lemma client_new_clean p s : clean (client_new p s).
Proof. reflexivity. Qed.
Lemma set_slave_clean st s : clean st -> clean (set_slave st s).
Proof. auto. Qed.

Theorem call_conserves p m st req bg :
  exists fr, (fr = [] \/ client_enc p m (req_hdr p st) req = Val fr)
    /\ accepted (wio_ (snd (call p m st req bg))) ++ wbuf (wio_ (snd (call p m st req bg)))
       = accepted (wio_ st) ++ wbuf (wio_ st) ++ fr.
Proof.
  destruct (call_is p m st req bg) as [|sr w bg1 pn c _ Hs|w bg1 nr r1 q1 bg2 _ Hs];
    [exists []; rewrite app_nil_r; auto|..]; apply send_conserve in Hs; destruct Hs as (fr & Hfr & Hc & _); eauto.
Qed.

Theorem call_completed_flushes p m st req bg i :
  call_reply p m st req bg = Some i -> wbuf (wio_ (snd (call p m st req bg))) = []
  /\ exists fr, client_enc p m (req_hdr p st) req = Val fr
                /\ accepted (wio_ (snd (call p m st req bg))) = accepted (wio_ st) ++ wbuf (wio_ st) ++ fr.
Proof.
  destruct (call_is p m st req bg) as [| |w bg1 nr r1 q1 bg2 _ Hs]; try discriminate. intros _.
  apply send_conserve in Hs. destruct Hs as (fr & _ & Hc & Hok & _). destruct (Hok eq_refl eq_refl) as [Hv Hw].
  rewrite Hw, app_nil_r in Hc. eauto.
Qed.

(* what the first disconnect reports: the first shutdown event that is not Pending *)
Fixpoint first_shutdown (q : list sdev) : disc_result :=
  match q with
  | [] => DROk
  | SdOk :: _ => DROk
  | SdErr k :: _ => match k with KNotConnected | KBrokenPipe => DROk | _ => DRErr k end
  | SdPend :: q' => first_shutdown q'
  end.

Lemma shutdown_result q : let '(r, _, dn) := shutdown q in r = first_shutdown q /\ dn = true.
Proof.
  induction q as [|e q IH]; [cbn; auto|]. destruct e as [|k|]; cbn [shutdown first_shutdown].
  - auto.
  - destruct k; auto.
  - exact IH.
Qed.

Theorem disconnect_first st : framed st = true ->
  fst (disconnect st) = first_shutdown (sq st) /\ framed (snd (disconnect st)) = false
  /\ shutdowns (snd (disconnect st)) = shutdowns st + 1.
Proof.
  intros Hf. unfold disconnect. rewrite Hf. cbn [negb]. pose proof (shutdown_result (sq st)) as H.
  destruct (shutdown (sq st)) as [[r q] d]. destruct H as [-> ->]. auto.
Qed.

Theorem disconnect_again st : framed st = false -> disconnect st = (DROk, st).
Proof. intros Hf. unfold disconnect. rewrite Hf. reflexivity. Qed.

Lemma disconnect_state st :
  exists f q n, snd (disconnect st) = mkC f (rst st) (wio_ st) (rq st) q (next_tid st) (unit_id st) n.
Proof.
  unfold disconnect. destruct (framed st) eqn:Hf; cbn [negb]; [destruct (shutdown (sq st)) as [[r q] d]|destruct st]; cbn; eauto.
Qed.

Lemma shutdown_bg_none q : shutdown_bg q None = shutdown q.
Proof. induction q as [|e q IH]; [reflexivity|]. destruct e as [|k|]; [reflexivity|destruct k; reflexivity|exact IH]. Qed.

(* a shutdown counts as completed unless its future was dropped, which is what DRWait reports *)
Lemma shutdown_bg_done : forall q bg,
  let '(r, _, dn) := shutdown_bg q bg in dn = match r with DRWait => false | _ => true end.
Proof.
  induction q as [|[|k|] q IH]; intros bg; cbn [shutdown_bg]; [reflexivity..|destruct k; reflexivity|].
  destruct (spend bg); [apply IH|reflexivity].
Qed.

Theorem disconnect_bg_abandoned st bg r st' : framed st = true -> disconnect_bg st bg = (r, st') -> r = DRWait ->
  shutdowns st' = shutdowns st.
Proof.
  unfold disconnect_bg. intros Hf. rewrite Hf. cbn [negb]. pose proof (shutdown_bg_done (sq st) bg) as Hd.
  destruct (shutdown_bg (sq st) bg) as [[r0 q] dn]. intros [= <- <-] ->. subst dn. reflexivity.
Qed.
