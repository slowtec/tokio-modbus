(* Coils.v -- packing and unpacking of coils (encode_packed_coils / decode_packed_coils). *)
From Coq Require Import Lia.
From TM Require Import Base Pdu BaseLemmas.

Lemma pack_ind (P : list bool -> Prop) :
  P [] ->
  (forall bs, (0 < length bs < 8)%nat -> P bs) ->
  (forall b0 b1 b2 b3 b4 b5 b6 b7 r, P r -> P (b0 :: b1 :: b2 :: b3 :: b4 :: b5 :: b6 :: b7 :: r)) ->
  forall bs, P bs.
Proof.
  intros H0 Hs H8 bs. remember (length bs) as n eqn:Hn. revert bs Hn.
  induction n as [n IH] using lt_wf_ind. intros bs Hn.
  destruct bs as [|b0 [|b1 [|b2 [|b3 [|b4 [|b5 [|b6 [|b7 r]]]]]]]];
    try (apply H0); try (apply Hs; cbn [length]; lia).
  apply H8. apply (IH (length r)); [cbn [length] in Hn; lia|reflexivity].
Qed.

Lemma pack_coils_short bs : (0 < length bs < 8)%nat -> pack_coils bs = [bits_val bs].
Proof.
  intros H. destruct bs as [|b0 [|b1 [|b2 [|b3 [|b4 [|b5 [|b6 [|b7 r]]]]]]]]; cbn [length] in H; try lia; reflexivity.
Qed.

Lemma testbit_bits_val bs : forall i, N.testbit (bits_val bs) i = nth (N.to_nat i) bs false.
Proof.
  induction bs as [|b r IH]; intros i; cbn [bits_val].
  - rewrite N.bits_0. destruct (N.to_nat i); reflexivity.
  - rewrite N.add_comm. destruct i as [|i _] using N.peano_ind.
    + apply N.testbit_0_r.
    + rewrite N.testbit_succ_r, N2Nat.inj_succ. apply IH.
Qed.

Lemma byte_bits_val bs : (length bs <= 8)%nat -> byte_bits (bits_val bs) = bs ++ repeat false (8 - length bs).
Proof.
  intros H. unfold byte_bits. rewrite !testbit_bits_val.
  destruct bs as [|b0 [|b1 [|b2 [|b3 [|b4 [|b5 [|b6 [|b7 [|b8 r]]]]]]]]]; cbn [length] in H; try lia; reflexivity.
Qed.

Lemma bits_val_lt bs : bits_val bs < 2 ^ len bs.
Proof.
  induction bs as [|b r IH]; [reflexivity|].
  cbn [bits_val]. rewrite len_cons, N.add_1_l, N.pow_succ_r'. destruct b; cbn [N.b2n]; lia.
Qed.

Lemma byte_ok_bits_val bs : (length bs <= 8)%nat -> byte_ok (bits_val bs) = true.
Proof.
  intros H. apply byte_ok_lt. pose proof (bits_val_lt bs).
  pose proof (N.pow_le_mono_r 2 (len bs) 8 ltac:(lia) ltac:(unfold len; lia)). lia.
Qed.

Definition pad_len (n : nat) : nat := ((8 - n mod 8) mod 8)%nat.

Lemma pad_len_spec n : (pad_len n < 8 /\ (n + pad_len n) mod 8 = 0)%nat.
Proof. unfold pad_len. lia. Qed.

Lemma all_bits_pack : forall bs, all_bits (pack_coils bs) = bs ++ repeat false (pad_len (length bs)).
Proof.
  apply pack_ind.
  - reflexivity.
  - intros bs H. rewrite pack_coils_short by exact H. unfold all_bits. cbn [flat_map].
    rewrite app_nil_r, byte_bits_val by lia. do 2 f_equal. pose proof (pad_len_spec (length bs)). lia.
  - intros b0 b1 b2 b3 b4 b5 b6 b7 r IH. cbn [pack_coils]. unfold all_bits in *. cbn [flat_map].
    rewrite byte_bits_val, IH by (cbn [length]; lia).
    replace (pad_len (length (b0 :: b1 :: b2 :: b3 :: b4 :: b5 :: b6 :: b7 :: r))) with (pad_len (length r))
      by (cbn [length]; unfold pad_len; lia).
    reflexivity.
Qed.

Lemma length_all_bits l : length (all_bits l) = (8 * length l)%nat.
Proof. induction l as [|b l IH]; [reflexivity|]. unfold all_bits in *. cbn [flat_map]. rewrite app_length. cbn [byte_bits length]. lia. Qed.
Lemma len_all_bits l : len (all_bits l) = 8 * len l.
Proof. unfold len. rewrite length_all_bits. lia. Qed.

(* the bits of the packed bytes are the coils and the padding: count them *)
Lemma len_pack bs : len (pack_coils bs) = packed_size bs.
Proof.
  pose proof (f_equal (@length bool) (all_bits_pack bs)) as H.
  rewrite length_all_bits, app_length, repeat_length in H. pose proof (pad_len_spec (length bs)). unfold packed_size, len. lia.
Qed.
#[export] Hint Rewrite len_pack len_all_bits : len.

Lemma bytes_ok_pack : forall bs, bytes_ok (pack_coils bs) = true.
Proof.
  apply pack_ind.
  - reflexivity.
  - intros bs H. rewrite pack_coils_short by exact H. cbn [bytes_ok forallb].
    rewrite byte_ok_bits_val by lia. reflexivity.
  - intros b0 b1 b2 b3 b4 b5 b6 b7 r IH. cbn [pack_coils bytes_ok forallb]. fold (bytes_ok (pack_coils r)).
    rewrite IH, byte_ok_bits_val by (cbn [length]; lia). reflexivity.
Qed.

Lemma unpack_pack_prefix bs q : q <= 8 * packed_size bs ->
  unpack_coils (pack_coils bs) q = Val (firstn (N.to_nat q) (bs ++ repeat false (pad_len (length bs)))).
Proof.
  intros H. unfold unpack_coils. rewrite len_pack, all_bits_pack.
  destruct (N.ltb_spec (8 * packed_size bs) q); [lia|reflexivity].
Qed.

Lemma unpack_pack bs : unpack_coils (pack_coils bs) (len bs) = Val bs.
Proof. rewrite unpack_pack_prefix, firstn_len_app by (unfold packed_size; lia). reflexivity. Qed.

Lemma unpack_pack_all bs :
  unpack_coils (pack_coils bs) (packed_size bs * 8) = Val (bs ++ repeat false (pad_len (length bs))).
Proof.
  rewrite unpack_pack_prefix by lia. rewrite firstn_all2; [reflexivity|].
  rewrite <- all_bits_pack, length_all_bits. pose proof (len_pack bs) as Hl. unfold len in Hl. lia.
Qed.

Lemma unpack_no_panic bytes count : count <= 8 * len bytes -> unpack_coils bytes count <> Panic.
Proof. intros H. unfold unpack_coils. destruct (N.ltb_spec (8 * len bytes) count); [lia|discriminate]. Qed.
