(* EndToEnd.v -- what one side emits is a valid frame for the other side (C01 / C02), and the encoders never
   panic behind their size checks (C03 / C09); stated once for either protocol over [Codecs.frame_of] and
   [frame_enc], the property files take the instances. *)
From Coq Require Import Lia.
From TM Require Import Base Frame Pdu RtuCodec Client Server Spec PduDecode PduEncode Codecs TcpProofs
  RtuProofs RtuCarried StreamProofs Histories ServerProofs.

Theorem client_enc_frame p m h r : req_ok r = true -> req_size r <= 253 ->
  client_enc p m h r = Val (frame_of p h (spec_req_pdu r)).
Proof.
  intros Hok Hsz. rewrite client_enc_eq. destruct (frame_enc_fits p m h _ _ _ (enc_req_encodes m r) Hsz) as (b & Hb & _ & ->).
  rewrite (proj1 (enc_req_spec m r Hok Hsz)) in Hb. congruence.
Qed.

Theorem server_enc_frame p m h r : rsp_ok r = true -> rsp_size r <= 253 ->
  server_enc p m h (RROk r) = Val (frame_of p h (spec_rsp_pdu r)).
Proof.
  intros Hok Hsz. rewrite server_enc_chk. destruct (frame_enc_fits p m h _ _ _ (enc_rsp_encodes m r) Hsz) as (b & Hb & _ & ->).
  rewrite (proj1 (enc_rsp_spec m r Hok Hsz)) in Hb. congruence.
Qed.

Lemma enc_exc_encodes m f e : fc_value f < 0x80 ->
  encodes 2 (fc_value f + 0x80) (enc_exc m {| exr_function := f; exr_exception := e |}).
Proof. intros Hf. rewrite (enc_exc_spec m f e Hf). split; reflexivity. Qed.

Theorem server_enc_exc_frame p m h f e : fc_value f < 0x80 ->
  server_enc p m h (RRExc {| exr_function := f; exr_exception := e |}) = Val (frame_of p h (spec_exc_pdu (fc_value f) (ex_value e))).
Proof.
  intros Hf. rewrite server_enc_exc_chk. destruct (frame_enc_fits p m h _ _ _ (enc_exc_encodes m f e Hf) ltac:(lia)) as (b & Hb & _ & ->).
  rewrite (enc_exc_spec m f e Hf) in Hb. congruence.
Qed.

Theorem oversized_request_refused_enc p m h r : 253 < req_size r -> client_enc p m h r = Fail KInvalidInput.
Proof. rewrite client_enc_eq. apply frame_enc_over. Qed.
Theorem oversized_response_refused p m h r : 253 < rsp_size r -> server_enc p m h (RROk r) = Fail KInvalidInput.
Proof. rewrite server_enc_chk. apply frame_enc_over. Qed.

(* the encoders never panic: every debug assertion / checked arithmetic sits behind a size check *)
Lemma frame_enc_no_panic p m h n fc pdu : encodes n fc pdu -> frame_enc p m h (size_chk n) pdu <> Panic.
Proof.
  intros E. destruct (N.le_gt_cases n 253) as [Hs|Hs].
  - destruct (frame_enc_fits p m h n fc pdu E Hs) as (b & _ & _ & ->). discriminate.
  - rewrite (frame_enc_over p m h n pdu Hs). discriminate.
Qed.

Theorem client_enc_no_panic p m h r : client_enc p m h r <> Panic.
Proof. rewrite client_enc_eq. exact (frame_enc_no_panic p m h _ _ _ (enc_req_encodes m r)). Qed.

Theorem server_enc_no_panic p m h req rep rr : fc_value (req_fc req) < 0x80 -> reply_of req rep = Some rr ->
  server_enc p m h rr <> Panic.
Proof.
  intros Hfc Hr. destruct rep as [r| |c]; try discriminate; injection Hr as <-.
  - rewrite server_enc_chk. exact (frame_enc_no_panic p m h _ _ _ (enc_rsp_encodes m r)).
  - rewrite server_enc_exc_chk. exact (frame_enc_no_panic p m h _ _ _ (enc_exc_encodes m _ c Hfc)).
Qed.

Lemma spec_rsp_pdu_head r : exists t, spec_rsp_pdu r = fc_value (rsp_fc r) :: t.
Proof. destruct r; cbn [spec_rsp_pdu app rsp_fc]; eauto. Qed.

Theorem dec_rsp_pdu_of_rsp r : rsp_size r <= 253 -> canonical_rsp r = true -> fc_value (rsp_fc r) < 0x80 ->
  dec_rsp_pdu (spec_rsp_pdu r) = Val (RROk (pad_rsp r)).
Proof.
  intros Hsz Hc Hfc. destruct (spec_rsp_pdu_head r) as [t Ht]. rewrite Ht, dec_rsp_pdu_eq.
  destruct (N.ltb_spec (fc_value (rsp_fc r)) 0x80); [|lia]. rewrite <- Ht, (dec_rsp_spec_pdu r Hsz Hc). reflexivity.
Qed.

Theorem dec_rsp_pdu_of_exc fc code : fc < 0x80 ->
  dec_rsp_pdu (spec_exc_pdu fc code) = Val (RRExc {| exr_function := fc_new fc; exr_exception := ex_new code |}).
Proof.
  intros Hf. unfold spec_exc_pdu. rewrite dec_rsp_pdu_eq, dec_exc_char.
  destruct (N.ltb_spec (fc + 128) 0x80); [lia|]. replace (fc + 128 - 128) with fc by lia. reflexivity.
Qed.

(* a header the protocol can carry; for TCP the header part of TcpProofs.hdr_ok *)
Definition hdr_fits (p : proto) (h : hdr) : Prop :=
  match p with TCP => fst h < 65536 /\ snd h < 256 | RTU => fst h = 0 end.

Lemma frame_of_valid {A} p tbl (pd : list N -> outcome A) h pdu v : pd pdu = Val v -> hdr_fits p h ->
  1 <= len pdu <= 65534 -> (p = RTU -> carried tbl (snd h) pdu) ->
  side_valid p tbl pd (frame_of p h pdu) (h, v).
Proof.
  intros Hd Hh Hl Hc. destruct h as [tid uid]. destruct p; cbn in *.
  - exists tid, uid, pdu. unfold hdr_ok. repeat split; tauto.
  - exists uid, pdu. subst tid. auto.
Qed.

Theorem request_frame_valid p h r : req_size r <= 253 -> canonical_req r = true -> hdr_fits p h ->
  (p = RTU -> rtu_req_supported r = true) ->
  server_valid p (frame_of p h (spec_req_pdu r)) (h, r).
Proof.
  intros Hsz Hc Hh Hs. apply (frame_of_valid p req_pdu_len dec_req); [apply dec_req_spec_pdu; assumption|exact Hh| |].
  - rewrite len_spec_req_pdu. destruct r; cbn [req_size] in *; lia.
  - intros E. apply req_carried; auto.
Qed.

Theorem response_frame_valid p h r : rsp_size r <= 253 -> canonical_rsp r = true -> fc_value (rsp_fc r) < 0x80 -> hdr_fits p h ->
  (p = RTU -> rtu_rsp_supported r = true) ->
  client_valid p (frame_of p h (spec_rsp_pdu r)) (h, RROk (pad_rsp r)).
Proof.
  intros Hsz Hc Hfc Hh Hs. apply (frame_of_valid p rsp_pdu_len dec_rsp_pdu); [apply dec_rsp_pdu_of_rsp; assumption|exact Hh| |].
  - rewrite len_spec_rsp_pdu. destruct r; cbn [rsp_size] in *; lia.
  - intros E. apply rsp_carried; auto.
Qed.

Theorem exception_frame_valid p h fc code : fc < 0x80 -> hdr_fits p h -> (p = RTU -> 1 <= fc <= 0x2B) ->
  client_valid p (frame_of p h (spec_exc_pdu fc code)) (h, RRExc {| exr_function := fc_new fc; exr_exception := ex_new code |}).
Proof.
  intros Hf Hh Hs. apply (frame_of_valid p rsp_pdu_len dec_rsp_pdu); [apply dec_rsp_pdu_of_exc, Hf|exact Hh|cbn; lia|].
  intros E. apply exc_carried; apply Hs, E.
Qed.
