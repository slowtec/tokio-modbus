(* The framed halves: conservation of bytes on the write half; where items and latched errors come from on the
   read half. *)
From TM Require Import Base RtuCodec Framed FramedProofs.

(* never SWait: an exhausted write script accepts everything *)
Lemma flush_w_conserve : forall wq wbuf acc bg,
  let '(r, wbuf', acc', _, _) := flush_w wbuf acc wq bg in
  acc' ++ wbuf' = acc ++ wbuf /\ (r = SOk -> wbuf' = []) /\ r <> SWait.
Proof.
  induction wq as [|e wq IH]; intros [|b wbuf] acc bg; cbn [flush_w]; rewrite ?app_nil_r; try easy.
  destruct e as [n| |k|]; [destruct (n =? 0)| | |destruct (spend bg)]; try easy; [|apply IH].
  specialize (IH (skipn (N.to_nat n) (b :: wbuf)) (acc ++ firstn (N.to_nat n) (b :: wbuf)) bg).
  rewrite <- app_assoc, firstn_skipn in IH. exact IH.
Qed.

Lemma flush_f_not_wait : forall fq bg, let '(r, _, _) := flush_f fq bg in r <> SWait.
Proof.
  induction fq as [|[|k|] fq IH]; intros bg; cbn [flush_f]; try easy.
  destruct (spend bg); [apply IH|easy].
Qed.

Lemma poll_flush_conserve w bg : let '(r, w', _) := poll_flush w bg in
  accepted w' ++ wbuf w' = accepted w ++ wbuf w /\ (r = SOk -> wbuf w' = []) /\ r <> SWait.
Proof.
  unfold poll_flush. pose proof (flush_w_conserve (wq w) (wbuf w) (accepted w) bg) as H.
  destruct (flush_w _ _ _ bg) as [[[[r1 b1] a1] q1] bg1]. destruct r1; try exact H.
  pose proof (flush_f_not_wait (fq w) bg1) as Hf. destruct (flush_f (fq w) bg1) as [[r2 f2] bg2].
  destruct H as (H1 & H2 & _). auto.
Qed.

(* SinkExt::send: the bytes handed to the transport plus the bytes still buffered grow by exactly the
   encoded frame, or by nothing if the item was never encoded ([pn]: the encoder panicked) *)
Lemma send_conserve frame w bg r w' bg' pn :
  send frame w bg = (r, w', bg', pn) ->
  exists fr, (fr = [] \/ frame = Val fr) /\ accepted w' ++ wbuf w' = accepted w ++ wbuf w ++ fr
             /\ (r = SOk -> pn = false -> frame = Val fr /\ wbuf w' = []) /\ r <> SWait.
Proof.
  unfold send.
  (* poll_ready: either nothing happens or a flush that conserves *)
  assert (Hready : let '(r1, w1, _) := if BACKPRESSURE <=? len (wbuf w) then poll_flush w bg else (SOk, w, bg) in
            accepted w1 ++ wbuf w1 = accepted w ++ wbuf w /\ r1 <> SWait).
  { destruct (BACKPRESSURE <=? len (wbuf w)); [|easy].
    pose proof (poll_flush_conserve w bg) as H. destruct (poll_flush w bg) as [[r1 w1] bg1]. tauto. }
  destruct (if BACKPRESSURE <=? len (wbuf w) then _ else _) as [[r1 w1] bg1]. destruct Hready as [H1 H3].
  (* unless poll_ready succeeds and the item is encoded, [send] stops here with nothing added *)
  assert (Hnothing : forall x pn0, x <> SWait -> (x = SOk -> pn0 = true) -> (x, w1, bg1, pn0) = (r, w', bg', pn) ->
            exists fr, (fr = [] \/ frame = Val fr) /\ accepted w' ++ wbuf w' = accepted w ++ wbuf w ++ fr
                       /\ (r = SOk -> pn = false -> frame = Val fr /\ wbuf w' = []) /\ r <> SWait).
  { intros x pn0 Hx Hpn [= <- <- <- <-]. exists []. rewrite app_nil_r. split; [auto|]. split; [exact H1|]. split; [|exact Hx].
    intros Hok ->. discriminate (Hpn Hok). }
  destruct r1; try (apply Hnothing; easy). destruct frame as [f|k|]; [|apply Hnothing; easy..].
  pose proof (poll_flush_conserve (mkW (wbuf w1 ++ f) (wq w1) (fq w1) (accepted w1)) bg1) as H.
  destruct (poll_flush _ bg1) as [[r2 w2] bg2]. cbn [accepted wbuf] in H. destruct H as (G1 & G2 & G3).
  intros [= <- <- <- <-]. exists f. rewrite G1, app_assoc, H1, <- app_assoc. repeat split; auto.
Qed.

Lemma send_panic_flag frame w bg r w' bg' : send frame w bg = (r, w', bg', true) -> frame = Panic.
Proof.
  unfold send. destruct (if BACKPRESSURE <=? len (wbuf w) then _ else _) as [[[] w1] bg1]; try discriminate.
  destruct frame; [destruct (poll_flush _ bg1) as [[r2 w2] bg2]|..]; [discriminate..|reflexivity].
Qed.

Lemma send_encode_error k w bg : len (wbuf w) < BACKPRESSURE -> send (Fail k) w bg = (SErr k, w, bg, false).
Proof. intros H. unfold send. rewrite (proj2 (N.leb_gt _ _) H). reflexivity. Qed.

Section Read.
  Context {I : Type}.
  Variable dec : list N -> list N * dres I.

  Lemma attempt_latch st r st' : attempt dec st = inl (r, st') ->
    rerrored st' = match r with NErr _ => true | _ => false end.
  Proof.
    unfold attempt, decode_eof. destruct (rreadable st); [|discriminate].
    destruct (reof st), (dec (rbuf st)) as [[|] []]; intros [= <- <-]; reflexivity.
  Qed.

  Lemma next_latch evs st bg r st' evs' bg' :
    next dec st evs bg = (r, st', evs', bg') -> rerrored st' = match r with NErr _ => true | _ => false end.
  Proof.
    apply (next_ind dec (fun _ _ _ '(r, st', _, _) => rerrored st' = match r with NErr _ => true | _ => false end)); auto.
    intros st0 _ _ r0 st1 _. apply attempt_latch.
  Qed.

  Lemma next_unlatched evs st bg r st' evs' bg' :
    next dec st evs bg = (r, st', evs', bg') -> (forall k, r <> NErr k) -> rerrored st' = false.
  Proof. intros H Hne. rewrite (next_latch _ _ _ _ _ _ _ H). destruct r as [|k| | | |]; try reflexivity. elim (Hne k eq_refl). Qed.

  Lemma next_clears_latch st evs bg : rerrored st = true ->
    next dec st evs bg = (NEnd, mkR (rbuf st) (reof st) false false, evs, bg).
  Proof. intros H. rewrite next_eq, H. reflexivity. Qed.

  Lemma attempt_item st r st' : attempt dec st = inl (r, st') ->
    match r with NItem i => exists buf b', dec buf = (b', DSome i) | _ => True end.
  Proof.
    unfold attempt, decode_eof. destruct (rreadable st); [|discriminate].
    destruct (reof st), (dec (rbuf st)) as [[|] []] eqn:Hd; intros [= <- <-]; eauto.
  Qed.

  Lemma next_item_from_dec evs st bg i st' evs' bg' :
    next dec st evs bg = (NItem i, st', evs', bg') -> exists buf b', dec buf = (b', DSome i).
  Proof.
    apply (next_ind dec (fun _ _ _ '(r, _, _, _) => match r with NItem i => exists buf b', dec buf = (b', DSome i) | _ => True end)); auto.
    intros st0 _ _ r0 st1 _. apply attempt_item.
  Qed.
End Read.
