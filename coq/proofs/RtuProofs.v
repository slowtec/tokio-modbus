(* RtuProofs.v -- the resynchronising RTU decoder: segment invariant (C04), H1/H2 for frames
   the length table carries and noise skipping within the retry budget (C11). *)
From Coq Require Import Lia.
From TM Require Import Base Crc RtuCodec BaseLemmas FramedProofs.

Lemma skipn_skipn {A} : forall (y x : nat) (l : list A), skipn x (skipn y l) = skipn (x + y) l.
Proof.
  induction y as [|y IH]; intros x l.
  - rewrite Nat.add_0_r. reflexivity.
  - destruct l as [|a l]; [rewrite !skipn_nil; reflexivity|].
    rewrite Nat.add_succ_r. cbn [skipn]. apply IH.
Qed.

Lemma calc_crc_lt d : calc_crc d < 65536.
Proof. unfold calc_crc. pose proof (lo8_lt (crc_reg d)). pose proof (hi8_lt (crc_reg d)). lia. Qed.
Lemma crc2_length d : length (crc2 d) = 2%nat.
Proof. reflexivity. Qed.
Lemma crc2_shape d : crc2 d = [hi8 (calc_crc d); lo8 (calc_crc d)].
Proof. reflexivity. Qed.
Lemma check_crc_crc2 d : check_crc d (hi8 (calc_crc d)) (lo8 (calc_crc d)) = true.
Proof. unfold check_crc. rewrite of_be16_hi_lo by apply calc_crc_lt. apply N.eqb_refl. Qed.
Lemma check_crc_true d c1 c2 : c1 < 256 -> c2 < 256 -> check_crc d c1 c2 = true -> [c1; c2] = crc2 d.
Proof.
  intros H1 H2 H. unfold check_crc in H. apply N.eqb_eq in H. rewrite crc2_shape, <- H.
  destruct (hi_lo_of_be16 c1 c2 H1 H2) as [-> ->]. reflexivity.
Qed.

Lemma len_rtu_frame s p : len (rtu_frame s p) = len p + 3.
Proof. unfold rtu_frame, len. cbn [length]. rewrite app_length, crc2_length. lia. Qed.

Lemma checked_is_frame s p c1 c2 rest : bytes_ok (s :: p ++ c1 :: c2 :: rest) = true -> check_crc (s :: p) c1 c2 = true ->
  s :: p ++ c1 :: c2 :: rest = rtu_frame s p ++ rest.
Proof.
  intros Hok Hc. change (s :: p ++ c1 :: c2 :: rest) with ((s :: p) ++ c1 :: c2 :: rest) in Hok. apply bytes_ok_tail in Hok.
  apply bytes_ok_cons in Hok. destruct Hok as [H1 Hok]. apply bytes_ok_cons in Hok. destruct Hok as [H2 _].
  unfold rtu_frame. rewrite <- (check_crc_true _ _ _ H1 H2 Hc). cbn [app]. rewrite <- app_assoc. reflexivity.
Qed.

(* the outcomes of FrameDecoder::decode *)
Inductive frame_decode_spec (buf : list N) (n : N) : list N * fres -> Prop :=
| FD_short : len buf < n + 3 -> frame_decode_spec buf n (buf, FNone)
| FD_frame s p c1 c2 rest : buf = s :: p ++ c1 :: c2 :: rest -> len p = n -> check_crc (s :: p) c1 c2 = true ->
    frame_decode_spec buf n (rest, FSome s p)
| FD_crc s p c1 c2 rest : buf = s :: p ++ c1 :: c2 :: rest -> len p = n -> check_crc (s :: p) c1 c2 = false ->
    frame_decode_spec buf n (buf, FErr).

Lemma frame_decode_is buf n : frame_decode_spec buf n (frame_decode buf n).
Proof.
  unfold frame_decode. destruct (N.ltb_spec (len buf) (n + 3)) as [Hl|Hl]; [constructor; exact Hl|].
  pose proof (firstn_skipn (S (N.to_nat n)) buf) as Hb.
  pose proof (firstn_length_le buf (n := S (N.to_nat n)) ltac:(unfold len in Hl; lia)) as Ha.
  pose proof (skipn_length (S (N.to_nat n)) buf) as Hs.
  destruct (firstn (S (N.to_nat n)) buf) as [|s p]; [discriminate|].
  destruct (skipn (S (N.to_nat n)) buf) as [|c1 [|c2 rest]]; try (exfalso; unfold len in Hl; cbn in Hs; lia).
  assert (Hp : len p = n) by (unfold len; cbn in Ha; lia).
  cbn [hd tl]. destruct (check_crc (s :: p) c1 c2) eqn:Hc; econstructor; eauto.
Qed.

Lemma frame_decode_some buf n b' s p : bytes_ok buf = true ->
  frame_decode buf n = (b', FSome s p) -> buf = rtu_frame s p ++ b' /\ len p = n.
Proof.
  intros Hok H. destruct (frame_decode_is buf n) as [|s0 p0 c1 c2 rest -> Hp Hc|]; try discriminate.
  injection H as -> -> ->. split; [apply checked_is_frame; assumption|exact Hp].
Qed.

Lemma frame_decode_short buf n : len buf < n + 3 -> frame_decode buf n = (buf, FNone).
Proof. unfold frame_decode. intros H. destruct (N.ltb_spec (len buf) (n + 3)); [reflexivity|lia]. Qed.

Lemma frame_decode_frame s p x : frame_decode (rtu_frame s p ++ x) (len p) = (x, FSome s p).
Proof.
  unfold frame_decode. destruct (N.ltb_spec (len (rtu_frame s p ++ x)) (len p + 3)) as [Hl|_].
  { rewrite len_app, len_rtu_frame in Hl. lia. }
  unfold rtu_frame. cbn [app firstn skipn]. rewrite <- app_assoc, firstn_len_app, len_length, skipn_app, skipn_all, Nat.sub_diag.
  cbn [app skipn crc2 be16 hd tl]. rewrite check_crc_crc2. reflexivity.
Qed.

(* of the MAX_RETRIES = 20 attempts [n] drop [n] bytes and one takes the frame: the 19 of the noise statements *)
Lemma fuel20 (n : nat) : (n <= 19)%nat -> MAX_RETRIES = (n + S (19 - n))%nat.
Proof. unfold MAX_RETRIES. lia. Qed.

Section Loop.
  Variable pdu_len : list N -> outcome (option N).

  (* [proper_prefix] (FramedProofs.v) is this with [y <> []] *)
  Definition prefix (q l : list N) := exists y, l = q ++ y.
  (* from the frame followed by anything the table infers the PDU length; from a prefix that length or, if proper, nothing yet *)
  Definition carried (s : N) (p : list N) :=
    forall q, prefix q (rtu_frame s p) \/ (exists x, q = rtu_frame s p ++ x) ->
      (pdu_len q = Val None /\ len q < len p + 3) \/ pdu_len q = Val (Some (len p)).

  Lemma H1_loop s p x fuel dr : carried s p ->
    decode_loop pdu_len (S fuel) (rtu_frame s p ++ x) dr = (x, dr, DSome (s, p)).
  Proof.
    intros Hc. cbn [decode_loop].
    destruct (Hc (rtu_frame s p ++ x)) as [[_ Hl]|Hl]; [right; eauto| |].
    - exfalso. rewrite len_app, len_rtu_frame in Hl. lia.
    - rewrite Hl. rewrite frame_decode_frame. reflexivity.
  Qed.

  (* the converse of the waiting case of [decode_loop_ind]: such a buffer stops the first attempt *)
  Lemma loop_waits d fuel dr : pdu_len d = Val None \/ (exists n, pdu_len d = Val (Some n) /\ len d < n + 3) ->
    decode_loop pdu_len (S fuel) d dr = (d, dr, DNone).
  Proof.
    intros H. cbn [decode_loop]. destruct H as [H|(n & H & Hl)]; rewrite H; [reflexivity|].
    rewrite (frame_decode_short d n Hl). reflexivity.
  Qed.

  Lemma H2_loop s p q fuel dr : carried s p -> proper_prefix q (rtu_frame s p) ->
    decode_loop pdu_len (S fuel) q dr = (q, dr, DNone).
  Proof.
    intros Hc Hp. apply loop_waits.
    assert (Hlen : len q < len p + 3).
    { pose proof (proper_prefix_length _ _ Hp). rewrite <- (len_rtu_frame s p). unfold len. lia. }
    destruct Hp as [y [_ Hf]].
    destruct (Hc q) as [[Hl _]|Hl]; [left; exists y; exact Hf|left; exact Hl|right; eauto].
  Qed.

  (* trap: below this line [lia] puts these hypotheses into a closed statement, used or not *)
  Hypothesis pdu_len_nil : pdu_len [] = Val None.
  Hypothesis pdu_len_no_panic : forall b, pdu_len b <> Panic.

  Lemma decode_loop_ind (P : nat -> list N -> list N -> list N * list N * dres (N * list N) -> Prop) :
    (forall buf dr, P O buf dr (buf, dr, DErr KInvalidData)) ->
    (forall f buf dr, pdu_len buf = Val None \/ (exists n, pdu_len buf = Val (Some n) /\ len buf < n + 3) ->
       P (S f) buf dr (buf, dr, DNone)) ->
    (forall f s p c1 c2 rest dr, pdu_len (s :: p ++ c1 :: c2 :: rest) = Val (Some (len p)) -> check_crc (s :: p) c1 c2 = true ->
       P (S f) (s :: p ++ c1 :: c2 :: rest) dr (rest, dr, DSome (s, p))) ->
    (forall f x buf dr out, P f buf (dr ++ [x]) out -> P (S f) (x :: buf) dr out) ->
    forall fuel buf dr out, decode_loop pdu_len fuel buf dr = out -> P fuel buf dr out.
  Proof.
    intros P0 Pwait Pframe Pretry fuel buf dr out <-. revert buf dr.
    induction fuel as [|f IH]; intros buf dr; cbn [decode_loop]; [apply P0|].
    assert (Hrec : buf <> [] -> P (S f) buf dr match buf with x :: buf' => decode_loop pdu_len f buf' (dr ++ [x]) | [] => (buf, dr, DPanic) end).
    { destruct buf as [|x buf']; [congruence|]. intros _. apply Pretry, IH. }
    destruct (pdu_len buf) as [[n|]| |] eqn:Hp.
    - destruct (frame_decode_is buf n) as [Hl|s p c1 c2 rest -> <- Hc|s p c1 c2 rest -> <- Hc].
      + apply Pwait. eauto.
      + apply Pframe; assumption.
      + apply Hrec. discriminate.
    - apply Pwait. auto.
    - apply Hrec. congruence. (* by [pdu_len_nil]: a table that fails was not given [] *)
    - elim (pdu_len_no_panic _ Hp).
  Qed.

  (* C04: what comes out is a CRC-valid contiguous slice; nothing else is lost *)
  Theorem decode_loop_segments : forall fuel buf dr b' dr' r, bytes_ok buf = true ->
      decode_loop pdu_len fuel buf dr = (b', dr', r) ->
      exists d, dr' = dr ++ d /\ r <> DPanic /\
        match r with
        | DSome (s, p) => buf = d ++ rtu_frame s p ++ b'
        | _ => buf = d ++ b'
        end.
  Proof.
    intros fuel buf dr b' dr' r Hok H. revert Hok.
    apply (decode_loop_ind (fun _ buf dr '(b', dr', r) => bytes_ok buf = true -> exists d, dr' = dr ++ d /\ r <> DPanic /\
             match r with DSome (s, p) => buf = d ++ rtu_frame s p ++ b' | _ => buf = d ++ b' end)) in H; [exact H|..].
    1, 2: intros; exists []; rewrite app_nil_r; repeat split; discriminate.
    - intros f s p c1 c2 rest dr0 _ Hc Hok. exists []. rewrite app_nil_r. repeat split; [discriminate|].
      apply checked_is_frame; assumption.
    - intros f x buf0 dr0 [[b0 dr1] r0] IH Hok. apply bytes_ok_cons in Hok. destruct (IH (proj2 Hok)) as (d & -> & Hnp & Hm).
      exists (x :: d). rewrite <- app_assoc. repeat split; [exact Hnp|].
      destruct r0 as [|[s p]| |]; rewrite Hm; reflexivity.
  Qed.

  (* C11: a byte before a noise-valued byte is dropped, one per attempt *)
  Variable noise : N -> bool.
  Hypothesis noise_invalid : forall a b tl, noise b = true -> exists k, pdu_len (a :: b :: tl) = Fail k.

  Lemma drop_noise : forall ns a y tl fuel dr,
      forallb noise (ns ++ [y]) = true ->
      decode_loop pdu_len (S (length ns) + fuel) (a :: ns ++ y :: tl) dr = decode_loop pdu_len fuel (y :: tl) (dr ++ a :: ns).
  Proof using noise_invalid.
    induction ns as [|n ns IH]; intros a y tl fuel dr Hn.
    - cbn [length Nat.add app decode_loop]. cbn in Hn. rewrite andb_true_r in Hn.
      destruct (noise_invalid a y tl Hn) as [k ->]. reflexivity.
    - cbn [app forallb] in Hn. apply andb_prop in Hn. destruct Hn as [Hn Hns].
      cbn [length app]. change (S (S (length ns)) + fuel)%nat with (S (S (length ns) + fuel)). cbn [decode_loop].
      destruct (noise_invalid a n (ns ++ y :: tl) Hn) as [k ->].
      rewrite IH by exact Hns. rewrite <- app_assoc. reflexivity.
  Qed.

  Theorem noise_then_frame : forall ns s p x,
      ns <> [] -> (length ns <= 19)%nat -> forallb noise (ns ++ [s]) = true -> carried s p ->
      decode_loop pdu_len MAX_RETRIES (ns ++ rtu_frame s p ++ x) [] = (x, ns, DSome (s, p)).
  Proof using pdu_len_no_panic noise_invalid.
    intros ns s p x Hne Hlen Hn Hc. destruct ns as [|a ns]; [congruence|].
    cbn [forallb app] in Hn. apply andb_prop in Hn. destruct Hn as [_ Hn]. rewrite (fuel20 _ Hlen). cbn [length].
    change ((a :: ns) ++ rtu_frame s p ++ x) with (a :: ns ++ s :: (p ++ crc2 (s :: p)) ++ x).
    rewrite (drop_noise ns a s _ _ [] Hn).
    change (s :: (p ++ crc2 (s :: p)) ++ x) with (rtu_frame s p ++ x).
    rewrite H1_loop by exact Hc. reflexivity.
  Qed.

End Loop.

Lemma rtu_frame_dec_loop tbl buf b r : rtu_frame_dec tbl buf = (b, r) ->
  exists dr, decode_loop tbl MAX_RETRIES buf [] = (b, dr, r).
Proof. unfold rtu_frame_dec. destruct (decode_loop tbl MAX_RETRIES buf []) as [[b0 dr] r0]. intros [= <- <-]. eauto. Qed.

(* bytes that are function codes in neither table (LenTables.*_noise_invalid): 0x00, 0x80, user-defined 0x41-0x48, 0x64-0x6E *)
Definition is_noise (b : N) : bool :=
  (b =? 0x00) || (b =? 0x80) || ((0x41 <=? b) && (b <=? 0x48)) || ((0x64 <=? b) && (b <=? 0x6E)).
