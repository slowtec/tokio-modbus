(* Codecs.v -- the four stream decoders (TCP / RTU x client / server) are one gluing [lift_dec] of a frame decoder
   and a PDU decoder, the four encoders one [frame_enc] of a size check and a PDU encoder: what is proved of the
   parts reaches all four through the lemmas of the gluing. *)
From Coq Require Import Lia.
From TM Require Import Base Pdu RtuCodec TcpCodec Client Server BaseLemmas PduEncode.

Section Lift.
  Context {H A B : Type}.
  Variable inner : list N -> list N * dres (H * A).
  Variable pd : A -> outcome B.

  Definition lift_dec (buf : list N) : list N * dres (H * B) :=
    match inner buf with
    | (b, DSome (h, a)) => match pd a with Val v => (b, DSome (h, v)) | Fail k => (b, DErr k) | Panic => (b, DPanic) end
    | (b, DNone) => (b, DNone)
    | (b, DErr k) => (b, DErr k)
    | (b, DPanic) => (b, DPanic)
    end.

  Definition lift_res (r0 : dres (H * A)) (r : dres (H * B)) : Prop :=
    match r0 with
    | DSome (h, a) => match pd a with Val v => r = DSome (h, v) | Fail k => r = DErr k | Panic => r = DPanic end
    | DNone => r = DNone
    | DErr k => r = DErr k
    | DPanic => r = DPanic
    end.

  Lemma lift_dec_inv buf b r : lift_dec buf = (b, r) -> exists r0, inner buf = (b, r0) /\ lift_res r0 r.
  Proof.
    unfold lift_dec. destruct (inner buf) as [b0 r0]. intros E. exists r0.
    destruct r0 as [|[h a]|k|]; cbn; [|destruct (pd a)|..]; injection E as <- <-; auto.
  Qed.

  Lemma lift_dec_waits buf b : lift_dec buf = (b, DNone) -> inner buf = (b, DNone).
  Proof. unfold lift_dec. destruct (inner buf) as [b0 [|[h a]|k|]]; [|destruct (pd a)|..]; intros [= <-]; reflexivity. Qed.

  Lemma lift_dec_item buf b h v : lift_dec buf = (b, DSome (h, v)) -> exists a, inner buf = (b, DSome (h, a)) /\ pd a = Val v.
  Proof.
    intros E. destruct (lift_dec_inv _ _ _ E) as ([|[h0 a]|k|] & Hi & Hr); try discriminate.
    cbn in Hr. destruct (pd a) eqn:Hp; try discriminate. injection Hr as <- <-. eauto.
  Qed.

  Lemma lift_dec_none buf b : inner buf = (b, DNone) -> lift_dec buf = (b, DNone).
  Proof. unfold lift_dec. intros ->. reflexivity. Qed.

  Lemma lift_dec_some buf b h a v : inner buf = (b, DSome (h, a)) -> pd a = Val v -> lift_dec buf = (b, DSome (h, v)).
  Proof. unfold lift_dec. intros -> ->. reflexivity. Qed.
End Lift.

(* RTU frames carry only the slave id: transaction id 0 *)
Definition frame_dec (p : proto) (tbl : list N -> outcome (option N)) (buf : list N) : list N * dres (hdr * list N) :=
  match p with
  | TCP => adu_decode buf
  | RTU => match rtu_frame_dec tbl buf with
           | (b, DSome (s, pdu)) => (b, DSome ((0, s), pdu))
           | (b, DNone) => (b, DNone)
           | (b, DErr k) => (b, DErr k)
           | (b, DPanic) => (b, DPanic)
           end
  end.

(* by name for the RTU codecs too: unifying [server_dec RTU] with [rtu_server_dec] can make Coq unfold the decoder's 20 iterations *)
Lemma rtu_server_dec_eq buf : rtu_server_dec buf = lift_dec (frame_dec RTU req_pdu_len) dec_req buf.
Proof.
  unfold lift_dec, rtu_server_dec. cbn [frame_dec].
  destruct (rtu_frame_dec req_pdu_len buf) as [b [|[s pdu]|k|]]; reflexivity.
Qed.

Lemma rtu_client_dec_eq buf : rtu_client_dec buf = lift_dec (frame_dec RTU rsp_pdu_len) dec_rsp_pdu buf.
Proof.
  unfold lift_dec, rtu_client_dec. cbn [frame_dec].
  destruct (rtu_frame_dec rsp_pdu_len buf) as [b [|[s pdu]|k|]]; reflexivity.
Qed.

Lemma server_dec_eq p buf : server_dec p buf = lift_dec (frame_dec p req_pdu_len) dec_req buf.
Proof. destruct p; [reflexivity|apply rtu_server_dec_eq]. Qed.

Lemma client_dec_eq p buf : client_dec p buf = lift_dec (frame_dec p rsp_pdu_len) dec_rsp_pdu buf.
Proof. destruct p; [reflexivity|apply rtu_client_dec_eq]. Qed.

Definition frame_enc (p : proto) (m : mode) (h : hdr) (size : outcome N) (pdu : outcome (list N)) : outcome (list N) :=
  match p with
  | TCP => sz <- size ;; l <- u16_len m (sz + 1) ;; b <- pdu ;; Val (mbap h l ++ b)
  | RTU => _ <- size ;; b <- pdu ;; Val (rtu_frame (snd h) b)
  end.

(* the size check of either side: [req_size_chk r], [rsp_size_chk r] unfold to it at [req_size r], [rsp_size r];
   for an exception response [rr_size_chk] answers [Val 2], which is [size_chk 2] computed *)
Definition size_chk (n : N) : outcome N := if MAX_PDU_SIZE <? n then Fail KInvalidInput else Val n.

Lemma client_enc_eq p m h r : client_enc p m h r = frame_enc p m h (size_chk (req_size r)) (enc_req m r).
Proof. destruct p; reflexivity. Qed.
Lemma server_enc_eq p m h rr : server_enc p m h rr = frame_enc p m h (rr_size_chk rr) (enc_rr m rr).
Proof. destruct p; reflexivity. Qed.
Lemma server_enc_chk p m h r : server_enc p m h (RROk r) = frame_enc p m h (size_chk (rsp_size r)) (enc_rsp m r).
Proof. apply server_enc_eq. Qed.
Lemma server_enc_exc_chk p m h e : server_enc p m h (RRExc e) = frame_enc p m h (size_chk 2) (enc_exc m e).
Proof. apply server_enc_eq. Qed.

Definition frame_of (p : proto) (h : hdr) (pdu : list N) : list N :=
  match p with TCP => mbap h (len pdu + 1) ++ pdu | RTU => rtu_frame (snd h) pdu end.

Lemma frame_of_nonempty p h pdu : frame_of p h pdu <> [].
Proof. destruct p; discriminate. Qed.

(* oversized values are refused before anything is appended *)
Lemma frame_enc_over p m h n pdu : 253 < n -> frame_enc p m h (size_chk n) pdu = Fail KInvalidInput.
Proof. intros H. unfold size_chk, MAX_PDU_SIZE. destruct (N.ltb_spec 253 n); [destruct p; reflexivity|lia]. Qed.

(* below the limit the PDU encoder returns a PDU of that size ([encodes]), and the MBAP length field cannot overflow *)
Lemma frame_enc_fits p m h n fc pdu : encodes n fc pdu -> n <= 253 ->
  exists b, pdu = Val b /\ len b = n /\ frame_enc p m h (size_chk n) pdu = Val (frame_of p h b).
Proof.
  intros E H. unfold size_chk, MAX_PDU_SIZE. destruct (N.ltb_spec 253 n); [lia|].
  destruct pdu as [b|k|]; cbn in E; [|contradiction|lia]. destruct E as [<- _]. exists b. do 2 (split; [reflexivity|]).
  destruct p; [|reflexivity]. cbn [frame_enc bind]. rewrite u16_len_fits by lia. reflexivity.
Qed.

Lemma frame_enc_nonempty p m h size pdu f : frame_enc p m h size pdu = Val f -> f <> [].
Proof.
  destruct p, size as [sz| |]; cbn [frame_enc bind]; try discriminate.
  - destruct (u16_len m (sz + 1)), pdu; cbn [bind]; intros [= <-]; discriminate.
  - destruct pdu; cbn [bind]; intros [= <-]; discriminate.
Qed.
