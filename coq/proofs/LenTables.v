(* LenTables.v -- the two RTU length tables (get_request_pdu_len / get_response_pdu_len) are a rule ([Tables.len_rule])
   looked up by the function code and applied to the buffer; what the proofs need of the tables is proved of rules. *)
From Coq Require Import Lia.
From TM Require Import Base RtuCodec Tables BaseLemmas RtuProofs.

Definition req_rule (fc : N) : len_rule :=
  if (1 <=? fc) && (fc <=? 6) then LConst 5
  else if (fc =? 0x07) || (fc =? 0x0B) || (fc =? 0x0C) || (fc =? 0x11) then LConst 1
  else if (fc =? 0x0F) || (fc =? 0x10) then LCount 6
  else if fc =? 0x16 then LConst 7
  else if fc =? 0x18 then LConst 3
  else if fc =? 0x17 then LCount 10
  else LInvalid.
Definition rsp_rule (fc : N) : len_rule :=
  if ((1 <=? fc) && (fc <=? 4)) || (fc =? 0x0C) || (fc =? 0x11) || (fc =? 0x17) then LCount 2
  else if (fc =? 0x05) || (fc =? 0x06) || (fc =? 0x0B) || (fc =? 0x0F) || (fc =? 0x10) then LConst 5
  else if fc =? 0x07 then LConst 2
  else if fc =? 0x16 then LConst 7
  else if fc =? 0x18 then LCount16 3
  else if (0x81 <=? fc) && (fc <=? 0xAB) then LConst 2
  else LInvalid.

Definition rule_len (R : N -> len_rule) (buf : list N) : outcome (option N) :=
  match nth_error buf 1 with None => Val None | Some fc => apply_rule (R fc) buf end.

(* split on every test on the function code *)
Ltac split_ifs := repeat match goal with |- context [if ?c then _ else _] => destruct c end.

Lemma req_pdu_len_rule buf : req_pdu_len buf = rule_len req_rule buf.
Proof.
  unfold req_pdu_len, rule_len, req_rule. destruct (nth_error buf 1) as [fc|]; [|reflexivity].
  split_ifs; reflexivity.
Qed.

Lemma rsp_pdu_len_rule buf : rsp_pdu_len buf = rule_len rsp_rule buf.
Proof.
  unfold rsp_pdu_len, rule_len, rsp_rule. destruct (nth_error buf 1) as [fc|]; [|reflexivity].
  split_ifs; try reflexivity.
  (* 0x18: the source matches on the first four bytes, the rule looks up the third and the fourth *)
  destruct buf as [|a [|b [|h [|l rest]]]]; reflexivity.
Qed.

(* the last index a rule reads, and the longest PDU it can announce over a buffer of bytes *)
Definition rule_reach (r : len_rule) : N := match r with LCount k | LCount16 k => k | _ => 0 end.
Definition rule_max (r : len_rule) : N :=
  match r with LConst n => n | LCount k => k + 255 | LCount16 k => k + 65535 | LInvalid => 0 end.

Lemma nth_error_len {A} (l : list A) i : nth_error l i = None <-> len l <= N.of_nat i.
Proof. rewrite nth_error_None. unfold len. lia. Qed.

Lemma nth_error_byte l i x : bytes_ok l = true -> nth_error l i = Some x -> x < 256.
Proof.
  intros Hok H. apply byte_ok_lt. unfold bytes_ok in Hok. rewrite forallb_forall in Hok. apply Hok. exact (nth_error_In _ _ H).
Qed.

Lemma nth_error_ext {A} (q y : list A) i x : nth_error q i = Some x -> nth_error (q ++ y) i = Some x.
Proof. intros H. rewrite nth_error_app1; [exact H|]. apply nth_error_Some. congruence. Qed.

Section Rule.
  Variable r : len_rule.

  Lemma apply_rule_no_panic buf : apply_rule r buf <> Panic.
  Proof. destruct r as [n|k|k|]; cbn; try discriminate. destruct (nth_error buf (N.to_nat k - 1)), (nth_error buf (N.to_nat k)); discriminate. Qed.

  Lemma apply_rule_none buf : apply_rule r buf = Val None -> len buf <= rule_reach r.
  Proof.
    destruct r as [n|k|k|]; cbn; try discriminate.
    - destruct (nth_error buf (N.to_nat k)) eqn:E; [discriminate|]. intros _. apply nth_error_len in E. lia.
    - destruct (nth_error buf (N.to_nat k)) eqn:E; [|intros _; apply nth_error_len in E; lia].
      destruct (nth_error buf (N.to_nat k - 1)) eqn:E1; [discriminate|]. intros _. apply nth_error_len in E1. lia.
  Qed.

  Lemma apply_rule_some buf n : bytes_ok buf = true -> apply_rule r buf = Val (Some n) -> n <= rule_max r.
  Proof.
    intros Hok. destruct r as [n0|k|k|]; cbn; try discriminate.
    - intros [= <-]. lia.
    - destruct (nth_error buf (N.to_nat k)) as [bc|] eqn:E; [|discriminate]. intros [= <-]. pose proof (nth_error_byte _ _ _ Hok E). lia.
    - destruct (nth_error buf (N.to_nat k - 1)) as [h|] eqn:E1; [|discriminate]. destruct (nth_error buf (N.to_nat k)) as [l|] eqn:E; [|discriminate].
      intros [= <-]. pose proof (nth_error_byte _ _ _ Hok E). pose proof (nth_error_byte _ _ _ Hok E1). unfold of_be16. lia.
  Qed.

  Lemma apply_rule_prefix q y : apply_rule r (q ++ y) = apply_rule r q \/ apply_rule r q = Val None.
  Proof.
    destruct r as [n|k|k|]; cbn; auto.
    - destruct (nth_error q (N.to_nat k)) eqn:E; [rewrite (nth_error_ext _ y _ _ E)|]; auto.
    - destruct (nth_error q (N.to_nat k - 1)) eqn:E1; [|auto]. destruct (nth_error q (N.to_nat k)) eqn:E; [|auto].
      rewrite (nth_error_ext _ y _ _ E), (nth_error_ext _ y _ _ E1). auto.
  Qed.
End Rule.

Section Table.
  Variable R : N -> len_rule.

  Lemma rule_len_no_panic b : rule_len R b <> Panic.
  Proof. unfold rule_len. destruct (nth_error b 1); [apply apply_rule_no_panic|discriminate]. Qed.
  Lemma rule_len_invalid a b tl : R b = LInvalid -> exists k, rule_len R (a :: b :: tl) = Fail k.
  Proof. intros H. unfold rule_len. cbn [nth_error]. rewrite H. cbn. eauto. Qed.

  Lemma rule_len_prefix q y : rule_len R (q ++ y) = rule_len R q \/ rule_len R q = Val None.
  Proof.
    unfold rule_len. destruct (nth_error q 1) as [fc|] eqn:E; [|auto]. rewrite (nth_error_ext _ y _ _ E). apply apply_rule_prefix.
  Qed.

  Lemma rule_len_none reach buf : (forall fc, rule_reach (R fc) <= reach) -> rule_len R buf = Val None -> len buf <= N.max 1 reach.
  Proof.
    intros Hreach. unfold rule_len. destruct (nth_error buf 1) as [fc|] eqn:E.
    - intros H. apply apply_rule_none in H. specialize (Hreach fc). lia.
    - intros _. apply nth_error_len in E. lia.
  Qed.
  Lemma rule_len_some top buf n : (forall fc, rule_max (R fc) <= top) -> bytes_ok buf = true -> rule_len R buf = Val (Some n) -> n <= top.
  Proof.
    intros Htop Hok. unfold rule_len. destruct (nth_error buf 1) as [fc|]; [|discriminate].
    intros H. apply (apply_rule_some _ _ _ Hok) in H. specialize (Htop fc). lia.
  Qed.

  (* [rule_len_prefix]: prefixes of the frame are told the same or to wait, extensions the same *)
  Lemma carried_full tbl s p : (forall b, tbl b = rule_len R b) -> tbl (rtu_frame s p) = Val (Some (len p)) -> carried tbl s p.
  Proof.
    intros He H q Hq. rewrite He in *. destruct Hq as [[y Hy]|[x ->]].
    - rewrite Hy in H. destruct (rule_len_prefix q y) as [E|Hn]; [right; rewrite <- E; exact H|left; split; [exact Hn|]].
      destruct y as [|y0 y]; [rewrite app_nil_r in H; congruence|].
      rewrite <- (len_rtu_frame s p), Hy, len_app, len_cons. lia.
    - right. destruct (rule_len_prefix (rtu_frame s p) x) as [->|E]; [exact H|congruence].
  Qed.
End Table.

Lemma req_rule_bounds fc : rule_reach (req_rule fc) <= 10 /\ rule_max (req_rule fc) <= 265.
Proof. unfold req_rule. split_ifs; cbn; lia. Qed.
Lemma rsp_rule_bounds fc : rule_reach (rsp_rule fc) <= 3 /\ rule_max (rsp_rule fc) <= 65538.
Proof. unfold rsp_rule. split_ifs; cbn; lia. Qed.

(* a noise byte fails every test: each compares the code with constants, [lia] decides it *)
Ltac tests_false := repeat match goal with |- context [if ?c then _ else _] => replace c with false by lia end.
Lemma req_noise_rule b : is_noise b = true -> req_rule b = LInvalid.
Proof. unfold is_noise, req_rule. intros H. tests_false. reflexivity. Qed.
Lemma rsp_noise_rule b : is_noise b = true -> rsp_rule b = LInvalid.
Proof. unfold is_noise, rsp_rule. intros H. tests_false. reflexivity. Qed.

Lemma req_pdu_len_nil : req_pdu_len [] = Val None. Proof. reflexivity. Qed.
Lemma rsp_pdu_len_nil : rsp_pdu_len [] = Val None. Proof. reflexivity. Qed.
Lemma req_pdu_len_short y : req_pdu_len [y] = Val None. Proof. reflexivity. Qed.
Lemma rsp_pdu_len_short y : rsp_pdu_len [y] = Val None. Proof. reflexivity. Qed.
Lemma req_pdu_len_no_panic b : req_pdu_len b <> Panic.
Proof. rewrite req_pdu_len_rule. apply rule_len_no_panic. Qed.
Lemma rsp_pdu_len_no_panic b : rsp_pdu_len b <> Panic.
Proof. rewrite rsp_pdu_len_rule. apply rule_len_no_panic. Qed.
Lemma req_noise_invalid a b tl : is_noise b = true -> exists k, req_pdu_len (a :: b :: tl) = Fail k.
Proof. intros H. rewrite req_pdu_len_rule. apply rule_len_invalid, req_noise_rule, H. Qed.
Lemma rsp_noise_invalid a b tl : is_noise b = true -> exists k, rsp_pdu_len (a :: b :: tl) = Fail k.
Proof. intros H. rewrite rsp_pdu_len_rule. apply rule_len_invalid, rsp_noise_rule, H. Qed.

Lemma req_carried_full s p : req_pdu_len (rtu_frame s p) = Val (Some (len p)) -> carried req_pdu_len s p.
Proof. exact (carried_full req_rule req_pdu_len s p req_pdu_len_rule). Qed.
Lemma rsp_carried_full s p : rsp_pdu_len (rtu_frame s p) = Val (Some (len p)) -> carried rsp_pdu_len s p.
Proof. exact (carried_full rsp_rule rsp_pdu_len s p rsp_pdu_len_rule). Qed.
