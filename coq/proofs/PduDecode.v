(* PduDecode.v -- the decoders of Pdu.v return the value of the classifiers of Spec.v where these accept and an error (never
   a panic) where they do not; what they accept is listed shape by shape ([req_shape], [rsp_shape]). *)
From Coq Require Import Lia.
From TM Require Import Base Frame Pdu BaseLemmas Coils Spec.

Definition verdict {A} (spec : option A) (got : outcome A) : Prop :=
  match spec with Some v => got = Val v | None => exists k, got = Fail k end.

Lemma verdict_val {A} (s : option A) o v : verdict s o -> (o = Val v <-> s = Some v).
Proof. destruct s; cbn; [intros ->|intros [k ->]]; split; congruence. Qed.
Lemma verdict_no_panic {A} (s : option A) (o : outcome A) : verdict s o -> o <> Panic.
Proof. destruct s; cbn; [intros ->|intros [k ->]]; discriminate. Qed.

(* Spec.v writes the big-endian word under a name of its own *)
Lemma u16_of_be16 h l : u16 h l = of_be16 h l.
Proof. reflexivity. Qed.

(* fc_new / ex_new branch on the binary digits of b, six resp. four deep; a number with more digits is a custom code *)
Lemma fc_roundtrip b : fc_value (fc_new b) = b.
Proof. destruct b as [|p]; [reflexivity|]. do 6 (destruct p as [p|p|]; try reflexivity). Qed.
Lemma ex_roundtrip b : ex_value (ex_new b) = b.
Proof. destruct b as [|p]; [reflexivity|]. do 4 (destruct p as [p|p|]; try reflexivity). Qed.

Lemma fc_cases (P : N -> Prop) :
  P 0x01 -> P 0x02 -> P 0x03 -> P 0x04 -> P 0x05 -> P 0x06 -> P 0x0F -> P 0x10 -> P 0x11 -> P 0x16 -> P 0x17 ->
  (forall fc, modelled_fc fc = false -> P fc) -> forall fc, P fc.
Proof.
  intros; destruct (modelled_fc fc) eqn:M; [|auto]. unfold modelled_fc in M.
  repeat (apply orb_prop in M; destruct M as [M|M]); apply N.eqb_eq in M; subst; assumption.
Qed.

(* M : modelled_fc fc = false makes every test [fc =? k] in the goal false *)
Ltac unmodelled M :=
  unfold modelled_fc in M; repeat (apply orb_false_elim in M; destruct M as [M ?]);
  repeat match goal with H : (_ =? _) = false |- _ => rewrite H; clear H end.

Lemma wf_req_custom fc r : modelled_fc fc = false ->
  wf_req (fc :: r) = if fc <? 0x80 then Some (ReqCustom fc r) else None.
Proof. intros M. unfold wf_req. unmodelled M. reflexivity. Qed.
Lemma dec_req_custom fc r : modelled_fc fc = false ->
  dec_req (fc :: r) = if fc <? 0x80 then Val (ReqCustom fc r) else Fail KInvalidData.
Proof. intros M. unfold dec_req. cbn [rd8 bind]. unmodelled M. reflexivity. Qed.
Lemma wf_rsp_custom fc d : modelled_fc fc = false -> wf_rsp (fc :: d) = Some (RspCustom fc d).
Proof. intros M. unfold wf_rsp. unmodelled M. reflexivity. Qed.
Lemma dec_rsp_custom fc d : modelled_fc fc = false -> dec_rsp (fc :: d) = Val (RspCustom fc d).
Proof. intros M. unfold dec_rsp. cbn [rd8 bind]. unmodelled M. reflexivity. Qed.

Lemma finish_skipn {A} n l (v : A) : finish (skipn n l) v = if (length l <=? n)%nat then Val v else Fail KInvalidData.
Proof.
  destruct (Nat.leb_spec (length l) n) as [H|H]; [rewrite skipn_all2 by exact H; reflexivity|].
  pose proof (skipn_length n l) as Hl. destruct (skipn n l); [cbn [length] in Hl; lia|reflexivity].
Qed.

Lemma bind_if {A B} (t : bool) (a b : outcome A) (f : A -> outcome B) :
  bind (if t then a else b) f = if t then bind a f else bind b f.
Proof. destruct t; reflexivity. Qed.

(* The classifiers end in [if c then Some v else None], c a conjunction of tests; the decoders are guards followed by a last
   read that has to take exactly the rest.  A guard fires only where c is false; the last read succeeds exactly where c holds. *)
Lemma verdict_fail {A} (c : bool) (v : A) k : c = false -> verdict (if c then Some v else None) (Fail k).
Proof. intros ->. cbn. eauto. Qed.
Lemma verdict_guard {A} (c t : bool) (v : A) k o :
  (t = true -> c = false) -> (t = false -> verdict (if c then Some v else None) o) ->
  verdict (if c then Some v else None) (if t then Fail k else o).
Proof. destruct t; auto using verdict_fail. Qed.

(* the reader is in the common form of [rd16s_eq] and [rd8s_eq] *)
Lemma verdict_take {A B} (c : bool) (f : list N -> B) (mk : B -> A) k l : c = (len l =? N.of_nat k) ->
  verdict (if c then Some (mk (f l)) else None)
    ('(x, r) <- (if (k <=? length l)%nat then Val (f (firstn k l), skipn k l) else Fail KUnexpectedEof) ;; finish r (mk x)).
Proof.
  intros ->. unfold len. destruct (N.eqb_spec (N.of_nat (length l)) (N.of_nat k)) as [He|Hne].
  - replace k with (length l) by lia. rewrite Nat.leb_refl, firstn_all, skipn_all. reflexivity.
  - destruct (Nat.leb_spec k (length l)); cbn [bind]; [rewrite finish_skipn, leb_correct_conv by lia|]; cbn; eauto.
Qed.

Lemma verdict_rd16s {A} c (mk : list N -> A) q data : c = (len data =? 2 * q) ->
  verdict (if c then Some (mk (words_of data)) else None) ('(ws, r) <- rd16s (N.to_nat q) data ;; finish r (mk ws)).
Proof. intros ->. rewrite rd16s_eq. apply verdict_take. f_equal. lia. Qed.

Lemma verdict_rd8s {A} c (mk : list N -> A) n data : c = (len data =? n) ->
  verdict (if c then Some (mk data) else None) ('(bs, r) <- rd8s (N.to_nat n) data ;; finish r (mk bs)).
Proof. intros ->. rewrite rd8s_eq. apply (verdict_take _ (fun l => l)). f_equal. lia. Qed.

Lemma verdict_unpack {A} c (mk : list bool -> A) v bc q data : bc <= len data -> q <= 8 * bc -> c = (len data =? bc) ->
  (len data = bc -> v = mk (firstn (N.to_nat q) (all_bits data))) ->
  verdict (if c then Some v else None)
    (coils <- unpack_coils (firstn (N.to_nat bc) data) q ;; finish (skipn (N.to_nat bc) data) (mk coils)).
Proof.
  intros Hbc Hq -> Hv. unfold unpack_coils. rewrite len_firstn.
  destruct (N.ltb_spec (8 * N.min bc (len data)) q); [lia|]. cbn [bind]. rewrite finish_skipn.
  destruct (N.eqb_spec (len data) bc) as [He|Hne]; unfold len in *.
  - rewrite (Hv He), <- He, Nat2N.id, Nat.leb_refl, firstn_all. reflexivity.
  - rewrite leb_correct_conv by lia. cbn. eauto.
Qed.

(* the spec side is [Spec.fixed4 mk r] / [fixed4r mk r] unfolded *)
Lemma fixed4_case {A} (mk : N -> N -> A) r :
  verdict (match r with [a1; a2; q1; q2] => Some (mk (u16 a1 a2) (u16 q1 q2)) | _ => None end)
          ('(a, r1) <- rd16 r ;; '(q, r2) <- rd16 r1 ;; finish r2 (mk a q)).
Proof. destruct r as [|a1 [|a2 [|q1 [|q2 [|x r]]]]]; cbn; eauto. Qed.

Lemma single_coil_case {A} (mk : N -> bool -> A) r :
  verdict
    (match r with
     | [a1; a2; v1; v2] =>
         if u16 v1 v2 =? 0xFF00 then Some (mk (u16 a1 a2) true)
         else if u16 v1 v2 =? 0x0000 then Some (mk (u16 a1 a2) false) else None
     | _ => None
     end)
    ('(a, r1) <- rd16 r ;; '(v, r2) <- rd16 r1 ;; b <- coil_to_bool v ;; finish r2 (mk a b)).
Proof.
  destruct r as [|a1 [|a2 [|v1 [|v2 [|x r]]]]]; cbn [rd16 bind]; try (cbn; eauto; fail);
    unfold coil_to_bool; rewrite <- (u16_of_be16 v1 v2);
    (destruct (_ =? _); [|destruct (_ =? _)]); cbn; eauto.
Qed.

(* L is the length of the whole PDU; it occurs only in the 253-test of both sides and is left free *)
Lemma write_regs_case {A} (mk : list N -> A) L q bc data :
  verdict (if (L <=? 253) && (bc =? 2 * q) && (len data =? bc) then Some (mk (words_of data)) else None)
          (_ <- (if 253 <? L then Fail KInvalidData else Val tt) ;;
           if negb (bc =? q * 2) then Fail KInvalidData else
           '(ws, r) <- rd16s (N.to_nat q) data ;; finish r (mk ws)).
Proof.
  rewrite bind_if. cbn [bind]. do 2 (apply verdict_guard; [lia|intros ?]). apply verdict_rd16s. lia.
Qed.

Theorem dec_req_verdict : forall bs, verdict (wf_req bs) (dec_req bs).
Proof.
  intros [|fc r]; [cbn; eauto|]. pattern fc. apply fc_cases; clear fc; intros.
  - (* 01 *) exact (fixed4_case ReqReadCoils r).
  - (* 02 *) exact (fixed4_case ReqReadDiscreteInputs r).
  - (* 03 *) exact (fixed4_case ReqReadHoldingRegisters r).
  - (* 04 *) exact (fixed4_case ReqReadInputRegisters r).
  - (* 05 *) exact (single_coil_case ReqWriteSingleCoil r).
  - (* 06 *) exact (fixed4_case ReqWriteSingleRegister r).
  - (* 0F *) destruct r as [|a1 [|a2 [|q1 [|q2 [|bc data]]]]]; try (cbn; eauto; fail).
    cbn [wf_req dec_req rd8 rd16 bind N.eqb Pos.eqb]. unfold chk_req_pdu_size, MAX_PDU_SIZE.
    change of_be16 with u16. rewrite !len_cons, bind_if. cbn [bind]. do 3 (apply verdict_guard; [lia|intros ?]).
    apply verdict_unpack; [lia..|reflexivity].
  - (* 10 *) destruct r as [|a1 [|a2 [|q1 [|q2 [|bc data]]]]]; try (cbn; eauto; fail).
    exact (write_regs_case (ReqWriteMultipleRegisters (u16 a1 a2)) _ (u16 q1 q2) bc data).
  - (* 11 *) destruct r; cbn; eauto.
  - (* 16 *) destruct r as [|a1 [|a2 [|x1 [|x2 [|y1 [|y2 [|z r]]]]]]]; cbn; eauto.
  - (* 17 *) destruct r as [|a1 [|a2 [|q1 [|q2 [|w1 [|w2 [|n1 [|n2 [|bc data]]]]]]]]]; try (cbn; eauto; fail).
    exact (write_regs_case (ReqReadWriteMultipleRegisters (u16 a1 a2) (u16 q1 q2) (u16 w1 w2)) _ (u16 n1 n2) bc data).
  - (* any other code *) rewrite wf_req_custom, dec_req_custom by assumption. destruct (fc <? 0x80); cbn; eauto.
Qed.

Lemma rsp_bits_case mk fc r : verdict (wf_bits mk (fc :: r) r) (dec_rsp_bits (fc :: r) r mk).
Proof.
  destruct r as [|bc data]; [cbn; eauto|].
  unfold wf_bits, dec_rsp_bits, chk_rsp_pdu_size, MAX_PDU_SIZE. cbn [rd8 bind]. rewrite !len_cons, bind_if. cbn [bind].
  do 2 (apply verdict_guard; [lia|intros ?]). apply verdict_unpack; [lia..|intros <-].
  rewrite firstn_all2 by (rewrite length_all_bits; unfold len; lia). reflexivity.
Qed.

Lemma rsp_words_case mk fc r : verdict (wf_words mk (fc :: r) r) (dec_rsp_words (fc :: r) r mk).
Proof.
  destruct r as [|bc data]; [cbn; eauto|].
  unfold wf_words, dec_rsp_words, chk_rsp_pdu_size, MAX_PDU_SIZE. cbn [rd8 bind]. rewrite bind_if. cbn [bind].
  do 2 (apply verdict_guard; [lia|intros ?]). apply verdict_rd16s. lia.
Qed.

Theorem dec_rsp_verdict : forall bs, verdict (wf_rsp bs) (dec_rsp bs).
Proof.
  intros [|fc r]; [cbn; eauto|]. pattern fc. apply fc_cases; clear fc; intros.
  - (* 01 *) exact (rsp_bits_case RspReadCoils _ r).
  - (* 02 *) exact (rsp_bits_case RspReadDiscreteInputs _ r).
  - (* 03 *) exact (rsp_words_case RspReadHoldingRegisters _ r).
  - (* 04 *) exact (rsp_words_case RspReadInputRegisters _ r).
  - (* 05 *) exact (single_coil_case RspWriteSingleCoil r).
  - (* 06 *) exact (fixed4_case RspWriteSingleRegister r).
  - (* 0F *) exact (fixed4_case RspWriteMultipleCoils r).
  - (* 10 *) exact (fixed4_case RspWriteMultipleRegisters r).
  - (* 11 *) destruct r as [|bc [|id [|st d]]]; [cbn; eauto | cbn; destruct (bc <? 2); eauto .. |].
    cbn [wf_rsp dec_rsp rd8 bind N.eqb Pos.eqb]. unfold chk_rsp_pdu_size, MAX_PDU_SIZE. rewrite bind_if. cbn [bind].
    do 2 (apply verdict_guard; [lia|intros ?]).
    (* only a status byte 0x00 or 0xFF gets as far as the data *)
    destruct (N.eqb_spec st 0) as [->|]; [|destruct (N.eqb_spec st 255) as [->|]]; cbn [bind].
    1-2: apply verdict_rd8s; lia.
    apply verdict_fail. lia.
  - (* 16 *) destruct r as [|a1 [|a2 [|x1 [|x2 [|y1 [|y2 [|z r]]]]]]]; cbn; eauto.
  - (* 17 *) exact (rsp_words_case RspReadWriteMultipleRegisters _ r).
  - (* any other code *) rewrite wf_rsp_custom, dec_rsp_custom by assumption. reflexivity.
Qed.

Lemma dec_exc_char bs :
  dec_exc bs = match bs with
               | [] => Fail KUnexpectedEof
               | f :: r => if f <? 0x80 then Fail KInvalidData else
                           match r with
                           | [] => Fail KUnexpectedEof
                           | c :: _ => Val {| exr_function := fc_new (f - 0x80); exr_exception := ex_new c |}
                           end
               end.
Proof. destruct bs as [|f [|c r]]; reflexivity. Qed.

Theorem dec_req_no_panic bs : dec_req bs <> Panic.
Proof. exact (verdict_no_panic _ _ (dec_req_verdict bs)). Qed.
Theorem dec_rsp_no_panic bs : dec_rsp bs <> Panic.
Proof. exact (verdict_no_panic _ _ (dec_rsp_verdict bs)). Qed.
Theorem dec_exc_no_panic bs : dec_exc bs <> Panic.
Proof. rewrite dec_exc_char. destruct bs as [|f [|c r]]; [|destruct (f <? 0x80)..]; discriminate. Qed.
Lemma dec_rsp_pdu_eq f r :
  dec_rsp_pdu (f :: r) = if f <? 0x80 then v <- dec_rsp (f :: r) ;; Val (RROk v) else e <- dec_exc (f :: r) ;; Val (RRExc e).
Proof. reflexivity. Qed.

Theorem dec_rsp_pdu_no_panic bs : dec_rsp_pdu bs <> Panic.
Proof.
  destruct bs as [|f r]; [discriminate|]. rewrite dec_rsp_pdu_eq. destruct (f <? 0x80).
  - pose proof (dec_rsp_no_panic (f :: r)). destruct (dec_rsp (f :: r)); cbn; congruence.
  - pose proof (dec_exc_no_panic (f :: r)). destruct (dec_exc (f :: r)); cbn; congruence.
Qed.

Lemma dec_req_val_iff bs v : dec_req bs = Val v <-> wf_req bs = Some v.
Proof. exact (verdict_val _ _ v (dec_req_verdict bs)). Qed.
Lemma dec_rsp_val_iff bs v : dec_rsp bs = Val v <-> wf_rsp bs = Some v.
Proof. exact (verdict_val _ _ v (dec_rsp_verdict bs)). Qed.

(* what the classifiers accept; the 253-byte limit of the counted shapes is left out, nothing that uses the shapes needs it *)
Inductive req_shape : list N -> request -> Prop :=
| ShReadCoils a1 a2 q1 q2 : req_shape [0x01; a1; a2; q1; q2] (ReqReadCoils (u16 a1 a2) (u16 q1 q2))
| ShReadDiscreteInputs a1 a2 q1 q2 :
    req_shape [0x02; a1; a2; q1; q2] (ReqReadDiscreteInputs (u16 a1 a2) (u16 q1 q2))
| ShReadHoldingRegisters a1 a2 q1 q2 :
    req_shape [0x03; a1; a2; q1; q2] (ReqReadHoldingRegisters (u16 a1 a2) (u16 q1 q2))
| ShReadInputRegisters a1 a2 q1 q2 :
    req_shape [0x04; a1; a2; q1; q2] (ReqReadInputRegisters (u16 a1 a2) (u16 q1 q2))
| ShWriteSingleCoil a1 a2 v1 v2 b : u16 v1 v2 = bool_to_coil b ->
    req_shape [0x05; a1; a2; v1; v2] (ReqWriteSingleCoil (u16 a1 a2) b)
| ShWriteSingleRegister a1 a2 w1 w2 :
    req_shape [0x06; a1; a2; w1; w2] (ReqWriteSingleRegister (u16 a1 a2) (u16 w1 w2))
| ShWriteMultipleCoils a1 a2 q1 q2 bc data : len data = bc -> u16 q1 q2 <= 8 * bc ->
    req_shape (0x0F :: a1 :: a2 :: q1 :: q2 :: bc :: data)
              (ReqWriteMultipleCoils (u16 a1 a2) (firstn (N.to_nat (u16 q1 q2)) (all_bits data)))
| ShWriteMultipleRegisters a1 a2 q1 q2 bc data : bc = 2 * u16 q1 q2 -> len data = bc ->
    req_shape (0x10 :: a1 :: a2 :: q1 :: q2 :: bc :: data) (ReqWriteMultipleRegisters (u16 a1 a2) (words_of data))
| ShReportServerId : req_shape [0x11] ReqReportServerId
| ShMaskWriteRegister a1 a2 x1 x2 y1 y2 :
    req_shape [0x16; a1; a2; x1; x2; y1; y2] (ReqMaskWriteRegister (u16 a1 a2) (u16 x1 x2) (u16 y1 y2))
| ShReadWriteMultipleRegisters a1 a2 q1 q2 w1 w2 n1 n2 bc data : bc = 2 * u16 n1 n2 -> len data = bc ->
    req_shape (0x17 :: a1 :: a2 :: q1 :: q2 :: w1 :: w2 :: n1 :: n2 :: bc :: data)
              (ReqReadWriteMultipleRegisters (u16 a1 a2) (u16 q1 q2) (u16 w1 w2) (words_of data))
| ShCustom fc d : fc < 0x80 -> modelled_fc fc = false -> req_shape (fc :: d) (ReqCustom fc d).

(* reduce a classifier on a literal function code to the branch of that code *)
Ltac branch := cbn [app word_bytes wf_req wf_rsp wf_bits wf_words fixed4 fixed4r N.eqb Pos.eqb] in *.

(* H : the branch accepts r.  Fixed length: every other length is rejected outright. *)
Ltac fixed_shape r H :=
  destruct r as [|a1 [|a2 [|a3 [|a4 [|a5 [|a6 [|a7 r]]]]]]]; try discriminate H; injection H as <-; constructor.
(* Counted, r cut into its fields: the branch's test holds. *)
Ltac counted_shape H := try discriminate H; apply if_Some in H as [C <-]; constructor; lia.
(* 05: the value word is one of the two coil words. *)
Ltac single_coil_shape r H :=
  destruct r as [|a1 [|a2 [|v1 [|v2 [|x r]]]]]; try discriminate H;
  destruct (N.eqb_spec (u16 v1 v2) 0xFF00); [|destruct (N.eqb_spec (u16 v1 v2) 0); [|discriminate H]];
  injection H as <-; constructor; assumption.

Lemma wf_req_shape bs v : wf_req bs = Some v -> req_shape bs v.
Proof.
  destruct bs as [|fc r]; [discriminate|]. revert r. pattern fc. apply fc_cases; clear fc.
  1-11: intros r H; branch.
  - (* 01 *) fixed_shape r H.
  - (* 02 *) fixed_shape r H.
  - (* 03 *) fixed_shape r H.
  - (* 04 *) fixed_shape r H.
  - (* 05 *) single_coil_shape r H.
  - (* 06 *) fixed_shape r H.
  - (* 0F *) destruct r as [|a1 [|a2 [|q1 [|q2 [|bc data]]]]]; counted_shape H.
  - (* 10 *) destruct r as [|a1 [|a2 [|q1 [|q2 [|bc data]]]]]; counted_shape H.
  - (* 11 *) fixed_shape r H.
  - (* 16 *) fixed_shape r H.
  - (* 17 *) destruct r as [|a1 [|a2 [|q1 [|q2 [|w1 [|w2 [|n1 [|n2 [|bc data]]]]]]]]]; counted_shape H.
  - (* any other code *) intros fc M r H. rewrite wf_req_custom in H by exact M. apply if_Some in H as [C <-].
    constructor; [lia|exact M].
Qed.

Lemma dec_req_shape bs v : dec_req bs = Val v -> req_shape bs v.
Proof. intros H. apply wf_req_shape, dec_req_val_iff, H. Qed.

Inductive rsp_shape : list N -> response -> Prop :=
| ShRspReadCoils bc data : len data = bc -> rsp_shape (0x01 :: bc :: data) (RspReadCoils (all_bits data))
| ShRspReadDiscreteInputs bc data : len data = bc ->
    rsp_shape (0x02 :: bc :: data) (RspReadDiscreteInputs (all_bits data))
| ShRspReadHoldingRegisters bc data : bc mod 2 = 0 -> len data = bc ->
    rsp_shape (0x03 :: bc :: data) (RspReadHoldingRegisters (words_of data))
| ShRspReadInputRegisters bc data : bc mod 2 = 0 -> len data = bc ->
    rsp_shape (0x04 :: bc :: data) (RspReadInputRegisters (words_of data))
| ShRspWriteSingleCoil a1 a2 v1 v2 b : u16 v1 v2 = bool_to_coil b ->
    rsp_shape [0x05; a1; a2; v1; v2] (RspWriteSingleCoil (u16 a1 a2) b)
| ShRspWriteSingleRegister a1 a2 w1 w2 :
    rsp_shape [0x06; a1; a2; w1; w2] (RspWriteSingleRegister (u16 a1 a2) (u16 w1 w2))
| ShRspWriteMultipleCoils a1 a2 q1 q2 :
    rsp_shape [0x0F; a1; a2; q1; q2] (RspWriteMultipleCoils (u16 a1 a2) (u16 q1 q2))
| ShRspWriteMultipleRegisters a1 a2 q1 q2 :
    rsp_shape [0x10; a1; a2; q1; q2] (RspWriteMultipleRegisters (u16 a1 a2) (u16 q1 q2))
| ShRspReportServerId bc id st d : len d + 2 = bc -> st = 0x00 \/ st = 0xFF ->
    rsp_shape (0x11 :: bc :: id :: st :: d) (RspReportServerId id (st =? 0xFF) d)
| ShRspMaskWriteRegister a1 a2 x1 x2 y1 y2 :
    rsp_shape [0x16; a1; a2; x1; x2; y1; y2] (RspMaskWriteRegister (u16 a1 a2) (u16 x1 x2) (u16 y1 y2))
| ShRspReadWriteMultipleRegisters bc data : bc mod 2 = 0 -> len data = bc ->
    rsp_shape (0x17 :: bc :: data) (RspReadWriteMultipleRegisters (words_of data))
| ShRspCustom fc d : modelled_fc fc = false -> rsp_shape (fc :: d) (RspCustom fc d).

Lemma wf_rsp_shape bs v : wf_rsp bs = Some v -> rsp_shape bs v.
Proof.
  destruct bs as [|fc r]; [discriminate|]. revert r. pattern fc. apply fc_cases; clear fc.
  1-11: intros r H; branch.
  - (* 01 *) destruct r as [|bc data]; counted_shape H.
  - (* 02 *) destruct r as [|bc data]; counted_shape H.
  - (* 03 *) destruct r as [|bc data]; counted_shape H.
  - (* 04 *) destruct r as [|bc data]; counted_shape H.
  - (* 05 *) single_coil_shape r H.
  - (* 06 *) fixed_shape r H.
  - (* 0F *) fixed_shape r H.
  - (* 10 *) fixed_shape r H.
  - (* 11 *) destruct r as [|bc [|id [|st d]]]; counted_shape H.
  - (* 16 *) fixed_shape r H.
  - (* 17 *) destruct r as [|bc data]; counted_shape H.
  - (* any other code *) intros fc M r H. rewrite wf_rsp_custom in H by exact M. injection H as <-. constructor. exact M.
Qed.

Lemma dec_rsp_shape bs v : dec_rsp bs = Val v -> rsp_shape bs v.
Proof. intros H. apply wf_rsp_shape, dec_rsp_val_iff, H. Qed.

Lemma req_shape_first_byte bs v : req_shape bs v -> hd_error bs = Some (fc_value (req_fc v)).
Proof. destruct 1; reflexivity. Qed.
Lemma rsp_shape_first_byte bs v : rsp_shape bs v -> hd_error bs = Some (fc_value (rsp_fc v)).
Proof. destruct 1; reflexivity. Qed.

Lemma dec_req_fc_below bs r : dec_req bs = Val r -> fc_value (req_fc r) < 0x80.
Proof. intros H. apply dec_req_shape in H. destruct H; cbn; lia. Qed.
