(* AcceptProofs.v -- the accept loop's decision logic (C14) and independence of connections (C18). *)
From TM Require Import Base Framed Client Server.

(* an event that ends serve / serve_until *)
Definition stops (e : accept_ev) : bool :=
  match e with AConn (SetupErr _) | AConn SetupHang | AAcceptErr _ | AAbort => true | _ => false end.
Definition is_abort (e : accept_ev) : bool := match e with AAbort => true | _ => false end.
Definition script_of (e : accept_ev) : list (list revt) :=
  match e with AConn (SetupService q) => [q] | _ => [] end.
(* [post]: what happens after e -- it matters only while a connection setup hangs: then the abort signal still ends serving *)
Definition result_of (e : accept_ev) (post : list accept_ev) : serve_result :=
  match e with
  | AConn (SetupErr k) | AAcceptErr k => SrvErr k
  | AAbort => SrvAborted
  | AConn SetupHang => if existsb is_abort post then SrvAborted else SrvListening
  | _ => SrvListening
  end.

Lemma serve_app pre rest : forallb (fun x => negb (stops x)) pre = true ->
  serve (pre ++ rest) = (flat_map script_of pre ++ fst (serve rest), snd (serve rest)).
Proof.
  induction pre as [|x pre IH]; intros H; [exact (surjective_pairing (serve rest))|].
  cbn [forallb] in H. apply andb_prop in H. destruct H as [Hx H].
  destruct x as [[q| |k|]|k|]; try discriminate; cbn [app serve]; rewrite (IH H); reflexivity.
Qed.

(* events before the first stopping event are all handled (a task per service, nothing for a rejected
   connection); that event decides the result; nothing after it is looked at *)
Theorem serve_split : forall pre e post,
  forallb (fun x => negb (stops x)) pre = true -> stops e = true ->
  serve (pre ++ e :: post) = (flat_map script_of pre, result_of e post).
Proof.
  intros pre e post Hpre He. rewrite (serve_app pre (e :: post) Hpre).
  destruct e as [[q| |k|]|k|]; try discriminate; cbn [serve fst snd]; rewrite app_nil_r; reflexivity.
Qed.

Theorem serve_keeps_listening : forall evs,
  forallb (fun x => negb (stops x)) evs = true -> serve evs = (flat_map script_of evs, SrvListening).
Proof.
  intros evs H. rewrite <- (app_nil_r evs) at 1. rewrite (serve_app evs [] H). cbn [serve fst snd].
  rewrite app_nil_r. reflexivity.
Qed.

(* C18, connections as independent machines.  A schedule is the global arrival order of (connection id, event). *)
Definition schedule := list (N * revt).
Definition events_of (c : N) (s : schedule) : list revt := map snd (filter (fun e => fst e =? c) s).

(* the server as a whole: per connection, what it has received so far; one step delivers one event
   to one connection and touches nothing else *)
Definition gstate := N -> list revt.
Definition gstep (g : gstate) (e : N * revt) : gstate :=
  fun c => if fst e =? c then g c ++ [snd e] else g c.
Definition grun (s : schedule) : gstate := fold_left gstep s (fun _ => []).

Lemma grun_from : forall s g c, fold_left gstep s g c = g c ++ events_of c s.
Proof.
  induction s as [|e s IH]; intros g c; [symmetry; apply app_nil_r|].
  cbn [fold_left]. rewrite IH. unfold gstep, events_of. cbn [filter].
  destruct (fst e =? c); [rewrite <- app_assoc|]; reflexivity.
Qed.

Theorem grun_projection s c : grun s c = events_of c s.
Proof. unfold grun. rewrite grun_from. reflexivity. Qed.

(* the trace of connection c: its own machine run on its own events with its own service instance *)
Definition conn_trace (p : proto) (m : mode) (svc : N -> list svc_reply) (s : schedule) (c : N) : list tev :=
  serve_conn p m (grun s c) [] [] (svc c).
