(* BufferBound.v -- bounded buffering (property C03, "never buffers more than one maximal frame").  Each decoder
   answers DNone ("need more input", the one answer that makes [next] read and grow its buffer) only below a bound
   B; over such a decoder the receive buffer of [next] stays below B + M, M the largest chunk one read delivers,
   up to and including the first call that returns an error.  (Polling on after an error reads into a buffer of
   any length: the server ends the connection there, the client clears the buffer before every call.) *)
From Coq Require Import Lia.
From TM Require Import Base RtuCodec TcpCodec Framed Client Server BaseLemmas FramedProofs FramedMore Codecs TcpProofs RtuProofs
  LenTables ClientProofs Histories Totality Slices.

Section LoopBound.
  Variable tbl : list N -> outcome (option N).
  Variable B : N.     (* longest announced frame: pdu length + 3 *)
  Hypothesis tbl_nil : tbl [] = Val None.
  Hypothesis tbl_no_panic : forall b, tbl b <> Panic.
  Hypothesis tbl_none : forall buf, tbl buf = Val None -> len buf < B.
  Hypothesis tbl_some : forall buf n, bytes_ok buf = true -> tbl buf = Val (Some n) -> n + 3 <= B.

  (* every retry drops one byte, so each of the [fuel] attempts still sees B bytes or more, where the table neither
     waits nor announces more than is there *)
  Lemma decode_loop_bounded : forall fuel buf dr b' dr' r, bytes_ok buf = true ->
      B + N.of_nat fuel <= len buf + 1 ->
      decode_loop tbl fuel buf dr = (b', dr', r) -> r <> DNone.
  Proof.
    intros fuel buf dr b' dr' r Hok Hlen H. revert Hok Hlen.
    apply (decode_loop_ind tbl tbl_nil tbl_no_panic (fun fuel buf _ '(_, _, r) => bytes_ok buf = true ->
             B + N.of_nat fuel <= len buf + 1 -> r <> DNone)) in H; [exact H|..]; try discriminate.
    - intros f buf0 _ [Hn|(n & Hn & Hl)] Hok Hlen; [pose proof (tbl_none _ Hn)|pose proof (tbl_some _ _ Hok Hn)]; lia.
    - intros f x buf0 dr0 [[b0 dr1] r0] IH Hok Hlen. apply bytes_ok_cons in Hok. apply IH; [tauto|]. rewrite len_cons in Hlen. lia.
  Qed.

  Lemma rtu_frame_dec_bounded buf b r : bytes_ok buf = true -> B + 19 <= len buf ->
      rtu_frame_dec tbl buf = (b, r) -> r <> DNone.
  Proof.
    intros Hok Hlen H. destruct (rtu_frame_dec_loop _ _ _ _ H) as [dr Hd].
    apply (decode_loop_bounded _ _ _ _ _ _ Hok) in Hd; [exact Hd|]. unfold MAX_RETRIES. lia.
  Qed.
End LoopBound.

Lemma record_skip_bounded rec b : len rec <= MAX_FRAME_LEN -> len (record_skip rec b) <= MAX_FRAME_LEN.
Proof.
  unfold record_skip, MAX_FRAME_LEN. intros H. destruct (N.leb_spec 256 (len rec)); rewrite len_app; cbn; lia.
Qed.

Lemma fold_left_inv {A X} (f : A -> X -> A) (P : A -> Prop) : (forall a x, P a -> P (f a x)) ->
  forall l a, P a -> P (fold_left f l a).
Proof. intros Hf. induction l as [|x l IH]; intros a H; [exact H|]. apply IH, Hf, H. Qed.

Theorem record_after_bounded {I} rec dropped (r : dres I) : len rec <= MAX_FRAME_LEN ->
  len (record_after rec dropped r) <= MAX_FRAME_LEN.
Proof.
  intros H. unfold record_after. destruct r; [|apply N.le_0_l|..];
    apply (fold_left_inv _ (fun rec => len rec <= MAX_FRAME_LEN)); auto using record_skip_bounded.
Qed.

Fixpoint chunks_le (M : N) (q : list revt) : Prop :=
  match q with
  | [] => True
  | RData c :: q' => len c <= M /\ chunks_le M q'
  | _ :: q' => chunks_le M q'
  end.

Lemma chunks_le_app M a b : chunks_le M a -> chunks_le M b -> chunks_le M (a ++ b).
Proof. induction a as [|e a IH]; cbn [app chunks_le]; [auto|]. destruct e; intuition. Qed.

Section Bound.
  Context {I : Type}.
  Variable dec : list N -> list N * dres I.
  Variables B M : N.
  Hypothesis Hpos : 0 < B.
  Hypothesis Htotal : dec_total dec.
  Hypothesis Hsuf : forall buf b r, bytes_ok buf = true -> dec buf = (b, r) -> bytes_ok b = true.
  Hypothesis Hbound : forall buf b r, bytes_ok buf = true -> B <= len buf -> dec buf = (b, r) -> r <> DNone.

  (* with [rreadable st = false] the next step of [next] is a read; that is the state after a DNone *)
  Definition rinv (st : rstate) : Prop := rreadable st = false -> len (rbuf st) < B.

  Definition sok (q : list revt) : Prop := bytes_ok (sdata q) = true.

  Lemma sok_tail e q : sok (e :: q) -> sok q.
  Proof using. unfold sok. destruct e; cbn [sdata]; auto. apply bytes_ok_tail. Qed.

  Lemma chunks_le_tail e q : chunks_le M (e :: q) -> chunks_le M q.
  Proof using. destruct e; cbn [chunks_le]; tauto. Qed.

  (* kept by [next]; no [rinv] while an error is latched: the next call returns without reading *)
  Definition binv (st : rstate) (evs : list revt) : Prop :=
    len (rbuf st) < B + M /\ (rerrored st = false -> rinv st) /\ bytes_ok (rbuf st) = true /\ sok evs /\ chunks_le M evs.

  Lemma binv_tail st e evs : binv st (e :: evs) -> binv st evs.
  Proof.
    intros (Hl & Hi & Hb & Hs & Hc). exact (conj Hl (conj Hi (conj Hb (conj (sok_tail _ _ Hs) (chunks_le_tail _ _ Hc))))).
  Qed.

  Lemma binv_buf st evs b e rd x : binv st evs -> bytes_ok b = true -> len b <= len (rbuf st) ->
    (x = false -> rd = false -> len b < B) -> binv (mkR b e rd x) evs.
  Proof.
    intros (Hl & _ & _ & Hs) Hb Hle Hi. exact (conj (N.le_lt_trans _ _ _ Hle Hl) (conj Hi (conj Hb Hs))).
  Qed.

  Lemma binv_nil e rd x evs : sok evs -> chunks_le M evs -> binv (mkR [] e rd x) evs.
  Proof.
    intros Hs Hc. split; [exact (N.lt_lt_add_r _ _ _ Hpos)|]. split; [intros _ _; exact Hpos|]. split; [reflexivity|]. split; assumption.
  Qed.

  Lemma dec_len buf b r : dec buf = (b, r) -> len b <= len buf.
  Proof. intros H. destruct (Htotal _ _ _ H) as (_ & Hl & _). unfold len. lia. Qed.

  Lemma attempt_bounded st evs : binv st evs -> match attempt dec st with inl (_, st') | inr st' => binv st' evs end.
  Proof.
    intros Hb. unfold attempt, decode_eof. destruct (rreadable st); [|exact Hb].
    pose proof Hb as (_ & _ & Hok & _). destruct (dec (rbuf st)) as [b0 r0] eqn:Hd.
    pose proof (dec_len _ _ _ Hd) as Hl. pose proof (Hsuf _ _ _ Hok Hd) as Hb0.
    destruct (reof st), r0 as [|i|k|]; [destruct b0|..]; apply (binv_buf st); try assumption; intros Hx Hr; try discriminate.
    - exact Hpos.
    - destruct (N.ltb_spec (len (rbuf st)) B) as [Hs|Hs]; [exact (N.le_lt_trans _ _ _ Hl Hs)|].
      elim (Hbound _ _ _ Hok Hs Hd). reflexivity.
  Qed.

  Lemma next_binv evs st bg r st' evs' bg' : rerrored st = false -> binv st evs ->
    next dec st evs bg = (r, st', evs', bg') -> binv st' evs'.
  Proof.
    intros Herr Hinv H.
    apply (next_ind dec (fun st evs _ '(_, st', evs', _) => rerrored st = false -> binv st evs -> binv st' evs')) in H;
      [exact (H Herr Hinv)|..]; clear H.
    - (* Platched *) congruence.
    - (* Pret *) intros st0 evs0 _ r0 st1 _ Ha _ Hb. pose proof (attempt_bounded st0 evs0 Hb) as G. rewrite Ha in G. exact G.
    - (* Pskip *) intros st0 st1 evs0 _ [[[r0 s0] e0] g0] _ _ Ha IH He Hb. pose proof (attempt_bounded st0 evs0 Hb) as G. rewrite Ha in G.
      exact (IH (proj2 (attempt_inr _ _ _ Ha) He) G).
    - (* Pwait *) intros st0 _ _ _ _ Hb. exact Hb.
    - (* Pabandon *) intros st0 evs0 _ _ _ _ _ Hb. exact (binv_tail _ _ _ Hb).
    - (* Ppend *) intros st0 evs0 _ _ [[[r0 s0] e0] g0] _ _ _ IH He Hb. exact (IH He (binv_tail _ _ _ Hb)).
    - (* Perr *) intros st0 evs0 _ k _ _ _ Hb. apply (binv_buf st0); [exact (binv_tail _ _ _ Hb)|apply Hb|apply N.le_refl|discriminate].
    - (* Pend *) intros st0 e evs0 _ _ _ _ _ _ Hb. exact (binv_tail _ _ _ Hb).
    - (* Peof *) intros st0 e evs0 _ [[[r0 s0] e0] g0] _ _ _ _ IH _ Hb. apply IH; [reflexivity|].
      apply (binv_buf st0); [exact (binv_tail _ _ _ Hb)|apply Hb|apply N.le_refl|discriminate].
    - (* Pdata: the read: at most M bytes onto a buffer shorter than B; [Hc /\ Hcs] is [chunks_le M (RData c :: evs0)] computed *)
      intros st0 c evs0 _ [[[r0 s0] e0] g0] _ Hr _ IH He (_ & Hi & Hb & Hs & Hc & Hcs). apply IH; [reflexivity|].
      specialize (Hi He Hr). unfold sok in Hs. cbn [sdata] in Hs.
      split; [cbn [rbuf]; rewrite len_app; lia|]. split; [intros _ [=]|].
      split; [cbn [rbuf]; rewrite bytes_ok_app, Hb, (bytes_ok_head _ _ Hs); reflexivity|].
      split; [exact (bytes_ok_tail _ _ Hs)|exact Hcs].
  Qed.

  (* [next_binv] with [binv] written out *)
  Theorem next_bounded : forall evs st bg r st' evs' bg',
      bytes_ok (rbuf st) = true -> sok evs -> chunks_le M evs ->
      rerrored st = false -> rinv st -> len (rbuf st) < B + M ->
      next dec st evs bg = (r, st', evs', bg') ->
      len (rbuf st') < B + M /\ (rerrored st' = false -> rinv st') /\ bytes_ok (rbuf st') = true
      /\ sok evs' /\ chunks_le M evs'.
  Proof using Hpos Htotal Hsuf Hbound.
    intros evs st bg r st' evs' bg' Hok Hsok Hch Herr Hinv Hlen.
    exact (next_binv _ _ _ _ _ _ _ Herr (conj Hlen (conj (fun _ => Hinv) (conj Hok (conj Hsok Hch))))).
  Qed.

  (* what a server connection does between errors *)
  Theorem items_bounded : forall n st evs is st' evs', rerrored st = false -> binv st evs ->
      take_items dec n st evs = Some (is, st', evs') -> binv st' evs'.
  Proof.
    induction n as [|n IH]; intros st evs is st' evs' He Hb H; cbn [take_items] in H.
    - injection H as <- <- <-. exact Hb.
    - destruct (next dec st evs None) as [[[r st1] evs1] bg1] eqn:Hn.
      destruct r as [i|k| | | |]; try discriminate.
      destruct (take_items dec n st1 evs1) as [[[is1 s1] e1]|] eqn:Ht; [|discriminate]. injection H as <- <- <-.
      assert (He1 : rerrored st1 = false) by (apply (next_unlatched _ _ _ _ _ _ _ _ Hn); discriminate).
      exact (IH _ _ _ _ _ He1 (next_binv _ _ _ _ _ _ _ He Hb Hn) Ht).
  Qed.
End Bound.

Lemma seg_suf {I} (dec : list N -> list N * dres I) R : dec_seg dec R ->
  forall buf b r, bytes_ok buf = true -> dec buf = (b, r) -> bytes_ok b = true.
Proof.
  intros Hs buf b r Hok H. destruct (Hs buf b r Hok H) as [d Hm].
  destruct r as [|i|k|]; try (rewrite Hm in Hok; exact (bytes_ok_tail _ _ Hok)).
  destruct Hm as [f [_ Hm]]. rewrite Hm in Hok. exact (bytes_ok_tail _ _ (bytes_ok_tail _ _ Hok)).
Qed.

(* the MBAP decoder waits only below 7 + (length field - 1) <= 65541 bytes; the statements take the rounder
   7 + 65535 = 65542, one more than needed *)
Lemma adu_decode_hdr_bound t1 t2 p1 p2 l1 l2 uid rest b r : l1 < 256 -> l2 < 256 -> 65535 <= len rest ->
  adu_decode (t1 :: t2 :: p1 :: p2 :: l1 :: l2 :: uid :: rest) = (b, r) -> r <> DNone.
Proof.
  intros H1 H2 Hl H. pose proof (of_be16_lt l1 l2 H1 H2) as Hlt.
  destruct (adu_decode_is t1 t2 p1 p2 l1 l2 uid rest); injection H as <- <-; try discriminate. lia.
Qed.

Lemma adu_decode_bound buf b r : bytes_ok buf = true -> 65542 <= len buf -> adu_decode buf = (b, r) -> r <> DNone.
Proof.
  intros Hok Hl. destruct buf as [|t1 [|t2 [|p1 [|p2 [|l1 [|l2 [|uid rest]]]]]]]; try (exfalso; cbn in Hl; lia).
  apply adu_decode_hdr_bound; [exact (nth_error_byte _ 4 _ Hok eq_refl)|exact (nth_error_byte _ 5 _ Hok eq_refl)|].
  rewrite !len_cons in Hl. lia.
Qed.

(* RTU: [top + 3] of the table's rules ([req_rule_bounds]: 265, [rsp_rule_bounds]: 65538) plus the 19 bytes a call may drop
   before it waits (the 20th drop ends it in an error) *)
Definition server_bound (p : proto) : N := match p with TCP => 65542 | RTU => 287 end.
Definition client_bound (p : proto) : N := match p with TCP => 65542 | RTU => 65560 end.

(* TCP has no length table: its bound is a constant.  RTU: a table of rules meets the hypotheses of Section LoopBound with B the
   longest frame the rules announce: the PDU of [LenTables.*_rule_bounds] + slave id + CRC *)
Lemma frame_dec_bound p tbl R reach top buf b r : (forall b, tbl b = rule_len R b) ->
  (forall fc, rule_reach (R fc) <= reach /\ rule_max (R fc) <= top) -> N.max 1 reach < top + 3 ->
  bytes_ok buf = true -> match p with TCP => 65542 | RTU => top + 3 + 19 end <= len buf ->
  frame_dec p tbl buf = (b, r) -> r <> DNone.
Proof.
  intros Ht Hb Hr Hok Hl. destruct p; cbn [frame_dec]; [exact (adu_decode_bound _ _ _ Hok Hl)|].
  destruct (rtu_frame_dec tbl buf) as [b0 r0] eqn:Hd.
  assert (r0 <> DNone); [|destruct r0 as [|[s pdu]|k|]; congruence].
  apply (rtu_frame_dec_bounded tbl (top + 3)) with (buf := buf) (b := b0); try assumption.
  - rewrite Ht. reflexivity.
  - intros b1. rewrite Ht. apply rule_len_no_panic.
  - intros b1 H. rewrite Ht in H. apply (rule_len_none R reach) in H; [lia|apply Hb].
  - intros b1 n Hok1 H. rewrite Ht in H. apply (rule_len_some R top) in H; [lia|apply Hb|exact Hok1].
Qed.

Lemma server_dec_bound p buf b r : bytes_ok buf = true -> server_bound p <= len buf -> server_dec p buf = (b, r) -> r <> DNone.
Proof.
  rewrite server_dec_eq. intros Hok Hl H ->.
  refine (frame_dec_bound p req_pdu_len req_rule 10 265 buf b _ req_pdu_len_rule req_rule_bounds eq_refl Hok _
            (lift_dec_waits _ _ _ _ H) eq_refl).
  exact Hl. (* [server_bound p] is the bound of [frame_dec_bound] at the bounds of [req_rule], computed *)
Qed.
Lemma client_dec_bound p buf b r : bytes_ok buf = true -> client_bound p <= len buf -> client_dec p buf = (b, r) -> r <> DNone.
Proof.
  rewrite client_dec_eq. intros Hok Hl H ->.
  refine (frame_dec_bound p rsp_pdu_len rsp_rule 3 65538 buf b _ rsp_pdu_len_rule rsp_rule_bounds eq_refl Hok _
            (lift_dec_waits _ _ _ _ H) eq_refl).
  exact Hl.
Qed.

Lemma server_bound_pos p : 0 < server_bound p. Proof. destruct p; reflexivity. Qed.
Lemma client_bound_pos p : 0 < client_bound p. Proof. destruct p; reflexivity. Qed.

(* kept by every client operation; no [rinv]: a call clears the buffer before it reads *)
Definition cinv (p : proto) (M : N) (st : cstate) : Prop :=
  clean st /\ bytes_ok (rbuf (rst st)) = true /\ sok (rq st) /\ chunks_le M (rq st)
  /\ len (rbuf (rst st)) < client_bound p + M.

Theorem call_buffer_bounded p m M st req bg : cinv p M st -> cinv p M (snd (call p m st req bg)).
Proof.
  intros (Hcl & Hi). split; [apply call_preserves_clean, Hcl|]. destruct Hi as (Hb & Hs & Hc & Hl).
  pose proof (binv_nil (client_bound p) M (client_bound_pos p) (reof (rst st)) (rreadable (rst st)) (rerrored (rst st)) _ Hs Hc) as Hnil.
  destruct (call_is p m st req bg) as [| |w bg1 nr r1 q1 bg2 _ _ Hn].
  - auto.
  - destruct Hnil as (K1 & _ & K3 & K4 & K5). auto.
  - destruct (next_binv (client_dec p) (client_bound p) M (client_bound_pos p) (client_dec_total p) (seg_suf _ _ (client_dec_seg p))
                (client_dec_bound p) (rq st) (cleared (rst st)) _ _ _ _ _ Hcl Hnil Hn) as (K1 & _ & K3 & K4 & K5).
    destruct nr; cbn; auto.
Qed.

Definition op_ok (M : N) (o : op) : Prop :=
  match o with OCall _ _ _ _ _ r => sok r /\ chunks_le M r | _ => True end.

Lemma push_cinv p M st w f r : cinv p M st -> sok r -> chunks_le M r -> cinv p M (push st w f r).
Proof.
  intros (Hcl & Hb & Hs & Hc & Hl) Hr Hcr. unfold cinv, push, clean. cbn [rst rq]. repeat split; auto.
  - unfold sok in *. rewrite sdata_app, bytes_ok_app, Hs, Hr. reflexivity.
  - apply chunks_le_app; assumption.
Qed.

Theorem history_buffer_bounded p m M : forall ops st, cinv p M st -> Forall (op_ok M) ops -> cinv p M (run_ops p m st ops).
Proof.
  intros ops st Hi Hok. revert Hi. apply (run_ops_inv p m (cinv p M) (op_ok M)); [|exact Hok].
  intros st' [t req bg w f r|s|sd] Ho Hi; [|exact Hi|].
  - rewrite run_op_call. destruct Ho. apply call_buffer_bounded, push_cinv; assumption.
  - cbn [run_op]. destruct (disconnect_state (push_sd st' sd)) as (f & q & n & ->). exact Hi.
Qed.
