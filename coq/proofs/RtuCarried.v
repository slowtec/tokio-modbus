(* RtuCarried.v -- which frames the RTU length tables carry.  By LenTables.carried_full it is enough that the
   table infers the PDU length from the complete frame; that is evaluated, function code by function code. *)
From Coq Require Import Lia.
From TM Require Import Base Frame Pdu RtuCodec BaseLemmas Spec PduDecode PduEncode RtuProofs LenTables.

Lemma agree (frame q : list N) i :
  (prefix q frame \/ exists x, q = frame ++ x) -> (i < length q)%nat -> (i < length frame)%nat ->
  nth_error q i = nth_error frame i.
Proof.
  intros [[y ->]|[x ->]] Hq Hf.
  - symmetry. apply nth_error_app1. exact Hq.
  - apply nth_error_app1. exact Hf.
Qed.
Lemma nth_word_bytes_skip w l k : nth_error (word_bytes w ++ l) (S (S k)) = nth_error l k.
Proof. reflexivity. Qed.

(* the requests the RTU request table has a row for *)
Definition rtu_req_supported (r : request) : bool :=
  match r with
  | ReqCustom fc d => (((fc =? 0x07) || (fc =? 0x0B) || (fc =? 0x0C)) && (len d =? 0)) || ((fc =? 0x18) && (len d =? 2))
  | _ => true
  end.

(* the row of a concrete function code: the closed tests on the code are evaluated; [do 2 f_equal] strips
   [Val (Some _)] and leaves the two lengths to compare *)
Ltac row := unfold req_pdu_len, rsp_pdu_len; cbn [rtu_frame spec_req_pdu spec_rsp_pdu spec_exc_pdu word_bytes app nth_error option_map];
  repeat match goal with |- context [if ?c then _ else _] => let v := eval vm_compute in c in change c with v; cbv iota end;
  rewrite ?len_cons; do 2 f_equal.

Theorem req_carried s r : req_size r <= 253 -> rtu_req_supported r = true -> carried req_pdu_len s (spec_req_pdu r).
Proof.
  (* requests of fixed length by evaluation; for the counted ones [row] leaves the count to compare *)
  intros Hsz Hsup. apply req_carried_full.
  destruct r as [a q|a q|a [|]|a bs|a q|a q|a w|a ws| |a am om|ra rq wa ws|fc d]; cbn [rtu_req_supported] in Hsup; try reflexivity;
    try (row; rewrite ?len_flat_word_bytes; lia).
  apply orb_prop in Hsup. destruct Hsup as [H|H]; apply andb_prop in H; destruct H as [Hfc Hd].
  - assert (fc = 7 \/ fc = 11 \/ fc = 12) as [->|[->| ->]] by lia; row; lia.
  - apply N.eqb_eq in Hfc. subst fc. row. lia.
Qed.

(* the responses the RTU response table has a row for *)
Definition rtu_rsp_supported (r : response) : bool :=
  match r with
  | RspCustom fc d =>
      ((fc =? 0x07) && (len d =? 1)) || ((fc =? 0x0B) && (len d =? 4))
      || ((fc =? 0x0C) && match d with bc :: rest => len rest =? bc | [] => false end)
      || ((fc =? 0x18) && match d with h :: l :: rest => len rest =? u16 h l | _ => false end)
  | _ => true
  end.

Theorem rsp_carried s r : rsp_size r <= 253 -> rtu_rsp_supported r = true -> carried rsp_pdu_len s (spec_rsp_pdu r).
Proof.
  intros Hsz Hsup. apply rsp_carried_full.
  destruct r as [bs|bs|a [|]|a q|ws|ws|a w|a q|id run d|a am om|ws|fc d]; cbn [rtu_rsp_supported] in Hsup; try reflexivity;
    try (row; rewrite ?len_flat_word_bytes; lia).
  repeat match type of Hsup with _ || _ = true => apply orb_prop in Hsup; destruct Hsup as [Hsup|Hsup] end;
    apply andb_prop in Hsup; destruct Hsup as [Hfc Hd]; apply N.eqb_eq in Hfc; subst fc.
  - row. lia.
  - row. lia.
  - destruct d as [|bc rest]; [discriminate|]. row. lia.
  - destruct d as [|h [|l rest]]; try discriminate. row. rewrite u16_of_be16 in Hd. lia.
Qed.

(* table rows 0x81..=0xAB *)
Theorem exc_carried s fc code : 1 <= fc -> fc <= 0x2B -> carried rsp_pdu_len s (spec_exc_pdu fc code).
Proof.
  intros H1 H2. apply rsp_carried_full. unfold spec_exc_pdu, rsp_pdu_len. cbn [rtu_frame nth_error app].
  repeat match goal with |- context [if ?c then _ else _] =>
    first [replace c with false by lia | replace c with true by lia; reflexivity] end.
Qed.
