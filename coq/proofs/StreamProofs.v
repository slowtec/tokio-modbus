(* StreamProofs.v -- H1/H2 of the fragmentation theorem for the four stream decoders, proved once for a side of
   either protocol ([side_valid]). *)
From TM Require Import Base Frame Pdu RtuCodec Framed Client FramedProofs Codecs TcpProofs RtuProofs.

Definition valid_rtu_req (f : list N) (i : hdr * request) : Prop :=
  exists s pdu, f = rtu_frame s pdu /\ carried req_pdu_len s pdu /\ dec_req pdu = Val (snd i) /\ fst i = (0, s).
Definition valid_rtu_rsp (f : list N) (i : hdr * rsp_result) : Prop :=
  exists s pdu, f = rtu_frame s pdu /\ carried rsp_pdu_len s pdu /\ dec_rsp_pdu pdu = Val (snd i) /\ fst i = (0, s).

(* both unfold to this, with their side's table [tbl] and PDU decoder [pd] *)
Definition rtu_valid {A} (tbl : list N -> outcome (option N)) (pd : list N -> outcome A) (f : list N) (i : hdr * A) : Prop :=
  exists s pdu, f = rtu_frame s pdu /\ carried tbl s pdu /\ pd pdu = Val (snd i) /\ fst i = (0, s).

(* [ServerProofs.server_valid p] and [Histories.client_valid p] unfold to instances *)
Definition side_valid {A} (p : proto) (tbl : list N -> outcome (option N)) (pd : list N -> outcome A) : list N -> hdr * A -> Prop :=
  match p with TCP => tcp_valid pd | RTU => rtu_valid tbl pd end.

Section Side.
  Context {A : Type}.
  Variables (p : proto) (tbl : list N -> outcome (option N)) (pd : list N -> outcome A).

  Lemma side_H1 f i x : side_valid p tbl pd f i -> lift_dec (frame_dec p tbl) pd (f ++ x) = (x, DSome i).
  Proof.
    destruct p; [apply tcp_valid_H1|]. intros (s & pdu & -> & Hc & Hd & Hi). destruct i as [h v]. cbn in Hd, Hi. subst h.
    apply (lift_dec_some _ _ _ _ _ pdu); [|exact Hd]. cbn [frame_dec]. unfold rtu_frame_dec, MAX_RETRIES.
    rewrite (H1_loop tbl s pdu x _ [] Hc). reflexivity.
  Qed.

  Lemma side_H2 f i q : side_valid p tbl pd f i -> proper_prefix q f -> lift_dec (frame_dec p tbl) pd q = (q, DNone).
  Proof.
    destruct p; [apply tcp_valid_H2|]. intros (s & pdu & -> & Hc & _) Hp. apply lift_dec_none.
    cbn [frame_dec]. unfold rtu_frame_dec, MAX_RETRIES. rewrite (H2_loop tbl s pdu q _ [] Hc Hp). reflexivity.
  Qed.

  Lemma side_valid_nonempty f i : side_valid p tbl pd f i -> f <> [].
  Proof. destruct p; [apply tcp_valid_nonempty|]. intros (s & pdu & -> & _). discriminate. Qed.
End Side.

(* by name for the RTU codecs: see Codecs.rtu_server_dec_eq *)
Lemma rtu_server_H1 f i x : valid_rtu_req f i -> rtu_server_dec (f ++ x) = (x, DSome i).
Proof. rewrite rtu_server_dec_eq. exact (side_H1 RTU req_pdu_len dec_req f i x). Qed.
Lemma rtu_server_H2 f i q : valid_rtu_req f i -> proper_prefix q f -> rtu_server_dec q = (q, DNone).
Proof. rewrite rtu_server_dec_eq. exact (side_H2 RTU req_pdu_len dec_req f i q). Qed.
Lemma rtu_client_H1 f i x : valid_rtu_rsp f i -> rtu_client_dec (f ++ x) = (x, DSome i).
Proof. rewrite rtu_client_dec_eq. exact (side_H1 RTU rsp_pdu_len dec_rsp_pdu f i x). Qed.
Lemma rtu_client_H2 f i q : valid_rtu_rsp f i -> proper_prefix q f -> rtu_client_dec q = (q, DNone).
Proof. rewrite rtu_client_dec_eq. exact (side_H2 RTU rsp_pdu_len dec_rsp_pdu f i q). Qed.
Lemma valid_rtu_req_nonempty f i : valid_rtu_req f i -> f <> [].
Proof. exact (side_valid_nonempty RTU req_pdu_len dec_req f i). Qed.
Lemma valid_rtu_rsp_nonempty f i : valid_rtu_rsp f i -> f <> [].
Proof. exact (side_valid_nonempty RTU rsp_pdu_len dec_rsp_pdu f i). Qed.

Theorem rtu_server_nothing_early cs b rd f i :
  valid_rtu_req f i -> Forall nonempty cs -> proper_prefix (b ++ concat cs) f ->
  exists st', next rtu_server_dec (mkR b false rd false) (datas cs) None = (NWait, st', [], None) /\ rbuf st' = b ++ concat cs.
Proof. apply (next_incomplete rtu_server_dec valid_rtu_req rtu_server_H2). Qed.
