(* Slices.v -- conservation for the framed read half, for ARBITRARY bytes: whatever the transport delivers, in
   whatever fragmentation, and however the [next] calls end, the items handed up over any number of calls are
   carried by pairwise disjoint contiguous slices of the received stream, in stream order; what lies between was
   dropped, nothing was invented or delivered twice.  For the RTU decoders (property C04), the MBAP decoder (C05)
   and the server loop; client histories are in SlicesClient.v. *)
From Coq Require Import Lia.
From TM Require Import Base Frame Pdu Crc RtuCodec TcpCodec Framed Client Server BaseLemmas FramedProofs Codecs TcpProofs RtuProofs LenTables
  ServerProofs.

Fixpoint sdata (q : list revt) : list N :=
  match q with
  | [] => []
  | RData c :: q' => c ++ sdata q'
  | _ :: q' => sdata q'
  end.

Lemma sdata_app a b : sdata (a ++ b) = sdata a ++ sdata b.
Proof.
  induction a as [|e a IH]; [reflexivity|]. destruct e; cbn [app sdata]; rewrite IH; [|reflexivity..].
  rewrite app_assoc. reflexivity.
Qed.

Lemma sdata_datas cs : sdata (datas cs) = concat cs.
Proof. induction cs as [|c cs IH]; [reflexivity|]. cbn [datas map sdata concat]. fold (datas cs). rewrite IH. reflexivity. Qed.

Section Seg.
  Context {I : Type}.
  Variable dec : list N -> list N * dres I.
  Variable R : list N -> I -> Prop.          (* "these bytes are a frame carrying this item" *)

  Definition dec_seg := forall buf b' r, bytes_ok buf = true -> dec buf = (b', r) ->
    exists d, match r with
              | DSome i => exists f, R f i /\ buf = d ++ f ++ b'
              | _ => buf = d ++ b'
              end.
  Hypothesis Hseg : dec_seg.

  (* one call of [next] on the stream [s]: [d] is dropped, then comes the item's frame, if any, then exactly [s']
     ([Slices] below does not say that the rest begins where the last frame ends) *)
  Definition seg_res (r : nres I) (s d s' : list N) : Prop :=
    match r with
    | NItem i => exists f, R f i /\ s = d ++ f ++ s'
    | _ => s = d ++ s'
    end.

  (* [dec_seg] of [decode_eof dec], written out: [dec_seg] speaks of the section's [dec] *)
  Lemma decode_eof_seg : forall buf b' r, bytes_ok buf = true -> decode_eof dec buf = (b', r) ->
    exists d, match r with
              | DSome i => exists f, R f i /\ buf = d ++ f ++ b'
              | _ => buf = d ++ b'
              end.
  Proof.
    intros buf b' r Hok H. unfold decode_eof in H. destruct (dec buf) as [b1 r1] eqn:Hd.
    destruct (Hseg _ _ _ Hok Hd) as [d Hs]. exists d.
    destruct r1 as [|i|k|]; [destruct b1|..]; injection H as <- <-; exact Hs.
  Qed.

  Lemma attempt_seg st : bytes_ok (rbuf st) = true ->
    match attempt dec st with
    | inl (r, st') => exists d, seg_res r (rbuf st) d (rbuf st')
    | inr st' => exists d, rbuf st = d ++ rbuf st'
    end.
  Proof.
    intros Hok. unfold attempt. destruct (rreadable st); [|exists []; reflexivity].
    destruct (reof st).
    - destruct (decode_eof dec (rbuf st)) as [b' r] eqn:Hd.
      destruct (decode_eof_seg _ _ _ Hok Hd) as [d Hs]. destruct r; exists d; exact Hs.
    - destruct (dec (rbuf st)) as [b' r] eqn:Hd.
      destruct (Hseg _ _ _ Hok Hd) as [d Hs]. destruct r; exists d; exact Hs.
  Qed.

  Lemma seg_res_drop r s d0 d s' : seg_res r s d s' -> seg_res r (d0 ++ s) (d0 ++ d) s'.
  Proof.
    destruct r as [i|k| | | |]; cbn [seg_res]; try (intros ->; apply app_assoc).
    intros [f [HR ->]]. exists f. split; [exact HR|]. apply app_assoc.
  Qed.

  Lemma seg_res_more r s d s' x : seg_res r s d s' -> seg_res r (s ++ x) d (s' ++ x).
  Proof.
    destruct r as [i|k| | | |]; cbn [seg_res]; try (intros ->; rewrite <- app_assoc; reflexivity).
    intros [f [HR ->]]. exists f. split; [exact HR|]. rewrite <- !app_assoc. reflexivity.
  Qed.

  (* one call of StreamExt::next, any script, any budget *)
  Theorem next_seg : forall evs st bg r st' evs' bg',
      bytes_ok (rbuf st ++ sdata evs) = true ->
      next dec st evs bg = (r, st', evs', bg') ->
      exists d, seg_res r (rbuf st ++ sdata evs) d (rbuf st' ++ sdata evs').
  Proof using Hseg.
    intros evs st bg r st' evs' bg' Hok H. revert Hok.
    (* applied in [H]: a goal-directed [apply] does not find the implication under the pattern of the predicate *)
    apply (next_ind dec (fun st evs _ '(r, st', evs', _) => bytes_ok (rbuf st ++ sdata evs) = true ->
             exists d, seg_res r (rbuf st ++ sdata evs) d (rbuf st' ++ sdata evs'))) in H; [exact H|..]; clear H;
      cbn [sdata rbuf]; try (intros; exists []; reflexivity).
    - (* Pret *) intros st0 evs0 _ r0 st1 _ Ha Hok. pose proof (attempt_seg st0 (bytes_ok_head _ _ Hok)) as Hs. rewrite Ha in Hs.
      destruct Hs as [d Hs]. exists d. apply seg_res_more, Hs.
    - (* Pskip *) intros st0 st1 evs0 _ [[[r0 s0] e0] g0] _ _ Ha IH Hok. pose proof (attempt_seg st0 (bytes_ok_head _ _ Hok)) as Hs. rewrite Ha in Hs.
      destruct Hs as [d0 Hs]. rewrite Hs, <- app_assoc in *. destruct (IH (bytes_ok_tail _ _ Hok)) as [d Hd].
      exists (d0 ++ d). apply seg_res_drop, Hd.
    - (* Ppend *) intros st0 evs0 _ _ [[[r0 s0] e0] g0] _ _ _ IH. exact IH.
    - (* Pend *) intros st0 [[|]| | |]; try discriminate; intros; exists []; reflexivity.
    - (* Peof *) intros st0 [[|]| | |] evs0 _ [[[r0 s0] e0] g0] _ _; try discriminate; intros _ _ IH; exact IH.
    - (* Pdata *) intros st0 c evs0 _ [[[r0 s0] e0] g0] _ _ _ IH. rewrite <- app_assoc in IH. exact IH.
  Qed.

  (* [Slices s is r]: the stream s is  d0 ++ f1 ++ d1 ++ f2 ++ ... ++ fn ++ dn ++ r  with R fk ik *)
  Inductive Slices : list N -> list I -> list N -> Prop :=
  | Sl_nil d r : Slices (d ++ r) [] r
  | Sl_cons d f i s is r : R f i -> Slices s is r -> Slices (d ++ f ++ s) (i :: is) r.

  Lemma Slices_drop d s is r : Slices s is r -> Slices (d ++ s) is r.
  Proof.
    destruct 1 as [d0 r|d0 f i s is r HR Hs]; rewrite app_assoc; constructor; assumption.
  Qed.

  Lemma Slices_more s is r x : Slices s is r -> Slices (s ++ x) is (r ++ x).
  Proof.
    induction 1 as [d r|d f i s is r HR Hs IH].
    - rewrite <- app_assoc. constructor.
    - rewrite <- !app_assoc. constructor; assumption.
  Qed.

  Lemma Slices_trans s is1 m is2 r : Slices s is1 m -> Slices m is2 r -> Slices s (is1 ++ is2) r.
  Proof.
    induction 1 as [d m|d f i s is m HR Hs IH]; intros H2.
    - apply Slices_drop. exact H2.
    - constructor; [exact HR|]. apply IH. exact H2.
  Qed.

  Lemma Slices_suffix s is r : Slices s is r -> exists d, s = d ++ r.
  Proof.
    induction 1 as [d r|d f i s is r HR Hs [d' IH]].
    - exists d. reflexivity.
    - exists (d ++ f ++ d'). rewrite IH, <- !app_assoc. reflexivity.
  Qed.

  Lemma Slices_bytes_ok s is r : Slices s is r -> bytes_ok s = true -> bytes_ok r = true.
  Proof. intros H Hok. destruct (Slices_suffix _ _ _ H) as [d ->]. exact (bytes_ok_tail _ _ Hok). Qed.

  Corollary next_slices evs st bg r st' evs' bg' :
      bytes_ok (rbuf st ++ sdata evs) = true ->
      next dec st evs bg = (r, st', evs', bg') ->
      Slices (rbuf st ++ sdata evs) (match r with NItem i => [i] | _ => [] end) (rbuf st' ++ sdata evs').
  Proof.
    intros Hok H. destruct (next_seg _ _ _ _ _ _ _ Hok H) as [d Hs].
    destruct r as [i|k| | | |]; cbn [seg_res] in Hs; try (rewrite Hs; constructor).
    destruct Hs as (f & HR & ->). constructor; [exact HR|apply (Sl_nil [])].
  Qed.

  Corollary next_suffix evs st bg r st' evs' bg' :
      bytes_ok (rbuf st ++ sdata evs) = true ->
      next dec st evs bg = (r, st', evs', bg') ->
      exists d, rbuf st ++ sdata evs = d ++ rbuf st' ++ sdata evs'.
  Proof. intros Hok H. exact (Slices_suffix _ _ _ (next_slices _ _ _ _ _ _ _ Hok H)). Qed.

  Fixpoint n_calls (n : nat) (st : rstate) (evs : list revt) : list I * rstate * list revt :=
    match n with
    | O => ([], st, evs)
    | S k =>
        match next dec st evs None with
        | (r, st', evs', _) =>
            let '(is, s, e) := n_calls k st' evs' in
            (match r with NItem i => i :: is | _ => is end, s, e)
        end
    end.

  Theorem n_calls_slices : forall n st evs is s e,
      bytes_ok (rbuf st ++ sdata evs) = true ->
      n_calls n st evs = (is, s, e) ->
      Slices (rbuf st ++ sdata evs) is (rbuf s ++ sdata e).
  Proof.
    induction n as [|n IH]; intros st evs is s e Hok H; cbn [n_calls] in H.
    - injection H as <- <- <-. apply (Sl_nil []).
    - destruct (next dec st evs None) as [[[r st1] evs1] bg1] eqn:Hn.
      destruct (n_calls n st1 evs1) as [[is1 s1] e1] eqn:Hc. injection H as <- <- <-.
      pose proof (next_slices _ _ _ _ _ _ _ Hok Hn) as Hs.
      pose proof (Slices_trans _ _ _ _ _ Hs (IH _ _ _ _ _ (Slices_bytes_ok _ _ _ Hs Hok) Hc)) as Ht.
      destruct r; exact Ht.
  Qed.
End Seg.

Arguments Slices {I} R _ _ _.

Lemma Slices_weaken {I J} (R : list N -> I -> Prop) (R' : list N -> J -> Prop) (g : I -> J) :
  (forall f i, R f i -> R' f (g i)) -> forall s is r, Slices R s is r -> Slices R' s (map g is) r.
Proof.
  intros HR s is r H. induction H as [d r|d f i s is r Hf Hs IH]; constructor; auto.
Qed.

(* slave :: pdu ++ CRC-16/MODBUS of both, low byte first *)
Definition rtu_slice (f : list N) (i : N * list N) : Prop := f = rtu_frame (fst i) (snd i).

Lemma rtu_frame_dec_seg tbl : tbl [] = Val None -> (forall b, tbl b <> Panic) -> dec_seg (rtu_frame_dec tbl) rtu_slice.
Proof.
  intros Hnil Hnp buf b' r Hok H. destruct (rtu_frame_dec_loop _ _ _ _ H) as [dr Hd].
  destruct (decode_loop_segments tbl Hnil Hnp _ _ _ _ _ _ Hok Hd) as [d [_ [_ Hm]]].
  exists d. destruct r as [|[s p]| |]; try exact Hm. exists (rtu_frame s p). split; [reflexivity|exact Hm].
Qed.

(* MBAP header (protocol id 0, length = |pdu| + 1) ++ pdu, the 16-bit fields as the byte pairs read:
   [Codecs.frame_of TCP h pdu] when transaction id and length fit 16 bits *)
Definition mbap_slice (f : list N) (i : hdr * list N) : Prop :=
  exists t1 t2 l1 l2, f = t1 :: t2 :: 0 :: 0 :: l1 :: l2 :: snd (fst i) :: snd i
    /\ fst (fst i) = of_be16 t1 t2 /\ of_be16 l1 l2 = len (snd i) + 1.

Lemma of_be16_zero a b : of_be16 a b = 0 -> a = 0 /\ b = 0.
Proof. unfold of_be16. lia. Qed.

Lemma adu_decode_seg : dec_seg adu_decode mbap_slice.
Proof.
  intros buf b' r Hok H.
  destruct buf as [|t1 [|t2 [|p1 [|p2 [|l1 [|l2 [|uid rest]]]]]]];
    try (injection H as <- <-; exists []; reflexivity).
  destruct (adu_decode_is t1 t2 p1 p2 l1 l2 uid rest) as [Hz|Hz Hw|Hz Hw Hp|Hz Hw Hp]; injection H as <- <-;
    try (exists []; reflexivity).
  - exists [t1; t2; p1; p2; l1; l2; uid]. reflexivity.
  - exists [].
    exists (t1 :: t2 :: p1 :: p2 :: l1 :: l2 :: uid :: firstn (N.to_nat (of_be16 l1 l2 - 1)) rest).
    apply of_be16_zero in Hp. destruct Hp as [-> ->]. split.
    + exists t1, t2, l1, l2. cbn [fst snd]. repeat split. rewrite len_firstn. lia.
    + cbn [app]. rewrite firstn_skipn. reflexivity.
Qed.

(* through [lift_dec]: a frame whose payload the PDU decoder refuses is dropped whole *)
Section Lift.
  Context {H A B : Type}.
  Variable pd : A -> outcome B.
  Variable Ri : list N -> H * A -> Prop.
  Definition lifted_slice (f : list N) (i : H * B) : Prop := exists a, Ri f (fst i, a) /\ pd a = Val (snd i).

  Lemma lifted_seg inner : dec_seg inner Ri -> dec_seg (lift_dec inner pd) lifted_slice.
  Proof.
    intros Hs buf b' r Hok H0. destruct (lift_dec_inv _ _ _ _ _ H0) as (r0 & Hi & Hr).
    destruct (Hs _ _ _ Hok Hi) as [d Hm].
    destruct r0 as [|[h a]|k|]; cbn [lift_res] in Hr; try (subst r; exists d; exact Hm).
    destruct Hm as [f [HR Hm]].
    destruct (pd a) as [v|k|] eqn:Hp; subst r; [|exists (d ++ f); rewrite <- app_assoc; exact Hm..].
    exists d, f. split; [|exact Hm]. exists a. split; assumption.
  Qed.
End Lift.

(* the decoder's side of [Codecs.frame_of]; an RTU item carries transaction id 0 *)
Definition frame_bytes (p : proto) (f : list N) (h : hdr) (pdu : list N) : Prop :=
  match p with
  | TCP => mbap_slice f (h, pdu)
  | RTU => f = rtu_frame (snd h) pdu /\ fst h = 0
  end.

Definition server_slice (p : proto) (f : list N) (i : hdr * request) : Prop :=
  exists pdu, frame_bytes p f (fst i) pdu /\ dec_req pdu = Val (snd i).
Definition client_slice (p : proto) (f : list N) (i : hdr * rsp_result) : Prop :=
  exists pdu, frame_bytes p f (fst i) pdu /\ dec_rsp_pdu pdu = Val (snd i).

Lemma frame_dec_seg p tbl : tbl [] = Val None -> (forall b, tbl b <> Panic) ->
  dec_seg (frame_dec p tbl) (fun f i => frame_bytes p f (fst i) (snd i)).
Proof.
  destruct p; [intros _ _; exact adu_decode_seg|]. intros Hnil Hnp buf b' r Hok. cbn [frame_dec].
  destruct (rtu_frame_dec tbl buf) as [b r0] eqn:Hd. intros H.
  destruct (rtu_frame_dec_seg tbl Hnil Hnp _ _ _ Hok Hd) as [d Hm].
  destruct r0 as [|[s pdu]|k|]; injection H as <- <-; exists d; try exact Hm.
  destruct Hm as [f [HR Hm]]. exists f. split; [|exact Hm]. split; [exact HR|reflexivity].
Qed.

Lemma server_dec_seg p : dec_seg (server_dec p) (server_slice p).
Proof.
  intros buf b' r Hok. rewrite server_dec_eq. revert buf b' r Hok.
  exact (lifted_seg dec_req _ _ (frame_dec_seg p _ req_pdu_len_nil req_pdu_len_no_panic)).
Qed.

Lemma client_dec_seg p : dec_seg (client_dec p) (client_slice p).
Proof.
  intros buf b' r Hok. rewrite client_dec_eq. revert buf b' r Hok.
  exact (lifted_seg dec_rsp_pdu _ _ (frame_dec_seg p _ rsp_pdu_len_nil rsp_pdu_len_no_panic)).
Qed.

Fixpoint calls (t : list tev) : list (N * request) :=
  match t with
  | [] => []
  | TCall s r :: t' => (s, r) :: calls t'
  | _ :: t' => calls t'
  end.

Lemma calls_app a b : calls (a ++ b) = calls a ++ calls b.
Proof. induction a as [|e a IH]; [reflexivity|]. destruct e; cbn [app calls]; rewrite IH; reflexivity. Qed.
Lemma calls_wrote bs : calls (wrote bs) = [].
Proof. destruct bs; reflexivity. Qed.

Definition call_slice (p : proto) (f : list N) (c : N * request) : Prop :=
  exists tid, server_slice p f ((tid, fst c), snd c).

(* the requests handed to the service, in order, are carried by disjoint slices of the received stream, for ANY
   bytes, fragmentation, service behaviour and write behaviour *)
Theorem process_slices p m : forall fuel r w q svc,
  bytes_ok (rbuf r ++ sdata q) = true ->
  exists rest, Slices (call_slice p) (rbuf r ++ sdata q) (calls (process fuel p m r w q svc)) rest.
Proof.
  assert (Hnone : forall s, exists rest, Slices (call_slice p) s [] rest) by (intros s; exists s; apply (Sl_nil _ [])).
  assert (Hitem : forall r q h req r1 q1 bg a t, bytes_ok (rbuf r ++ sdata q) = true ->
            next (server_dec p) r q None = (NItem (h, req), r1, q1, bg) ->
            (bytes_ok (rbuf r1 ++ sdata q1) = true -> exists rest, Slices (call_slice p) (rbuf r1 ++ sdata q1) (calls t) rest) ->
            exists rest, Slices (call_slice p) (rbuf r ++ sdata q) (calls (TCall (snd h) req :: wrote a ++ t)) rest).
  { intros r q h req r1 q1 bg a t Hok Hn IH.
    pose proof (next_slices _ _ (server_dec_seg p) _ _ _ _ _ _ _ Hok Hn) as Hs.
    destruct (IH (Slices_bytes_ok _ _ _ _ Hs Hok)) as [rest Hc]. exists rest.
    cbn [calls]. rewrite calls_app, calls_wrote.
    (* the service is not shown the transaction id *)
    apply (Slices_weaken _ (call_slice p) (fun i => (snd (fst i), snd i))) in Hs.
    - exact (Slices_trans _ _ _ _ _ _ Hs Hc).
    - intros f [[tid s] rq] HR. exists tid. exact HR. }
  apply (process_ind p m (fun _ r _ q _ t => bytes_ok (rbuf r ++ sdata q) = true ->
           exists rest, Slices (call_slice p) (rbuf r ++ sdata q) (calls t) rest)).
  - intros. apply Hnone.
  - intros fuel r w q svc nr r1 q1 bg _ _ _. destruct nr; apply Hnone.
  - intros fuel r w q svc h req r1 q1 bg t Hn _ IH Hok. exact (Hitem _ _ _ _ _ _ _ [] t Hok Hn IH).
  - intros fuel r w q svc h req r1 q1 bg rr sr w1 bg1 pn Hn _ _.
    (* after a complete send the loop goes on; every other way the trace ends with an event that is no call *)
    destruct pn, sr; cbn [send_end]; try exact (fun t IH Hok => Hitem _ _ _ _ _ _ _ _ t Hok Hn IH).
    all: intros Hok; apply (Hitem _ _ _ _ _ _ _ _ _ Hok Hn); intros _; apply Hnone.
Qed.

Corollary serve_conn_slices p m q wq fq svc : bytes_ok (sdata q) = true ->
  exists rest, Slices (call_slice p) (sdata q) (calls (serve_conn p m q wq fq svc)) rest.
Proof. intros Hok. unfold serve_conn. apply (process_slices p m _ rstate0). exact Hok. Qed.

Lemma rtu_call_slice f c : call_slice RTU f c ->
  exists pdu, f = fst c :: pdu ++ crc2 (fst c :: pdu) /\ dec_req pdu = Val (snd c).
Proof. intros (tid & pdu & (Hf & _) & Hd). exists pdu. split; [exact Hf|exact Hd]. Qed.

Lemma tcp_call_slice f c : call_slice TCP f c ->
  exists t1 t2 l1 l2 pdu, f = t1 :: t2 :: 0 :: 0 :: l1 :: l2 :: fst c :: pdu
    /\ of_be16 l1 l2 = len pdu + 1 /\ dec_req pdu = Val (snd c).
Proof.
  intros (tid & pdu & (t1 & t2 & l1 & l2 & Hf & _ & Hl) & Hd). exists t1, t2, l1, l2, pdu. auto.
Qed.

Lemma tcp_client_slice f i : client_slice TCP f i ->
  exists t1 t2 l1 l2 pdu, f = t1 :: t2 :: 0 :: 0 :: l1 :: l2 :: snd (fst i) :: pdu
    /\ fst (fst i) = of_be16 t1 t2 /\ of_be16 l1 l2 = len pdu + 1 /\ dec_rsp_pdu pdu = Val (snd i).
Proof.
  intros (pdu & (t1 & t2 & l1 & l2 & Hf & Ht & Hl) & Hd). exists t1, t2, l1, l2, pdu. auto.
Qed.
