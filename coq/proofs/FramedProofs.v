(* The framed read half [next], and the fragmentation theorem: a decoder that (H1) turns a complete frame followed
   by anything into its item and the rest, and (H2) leaves every proper prefix of a frame alone, delivers the
   frames of a stream in whatever non-empty chunks it is read, losing no byte. *)
From Coq Require Import Lia.
From TM Require Import Base RtuCodec Framed.

Definition proper_prefix (p f : list N) := exists y, y <> [] /\ f = p ++ y.
Definition datas (cs : list (list N)) : list revt := map RData cs.
Definition nonempty (c : list N) := c <> [].

Lemma app_split (b y f z : list N) : b ++ y = f ++ z -> (exists x, b = f ++ x) \/ proper_prefix b f.
Proof.
  revert f. induction b as [|a b IH]; intros [|a' f] Hq.
  - left. exists []. reflexivity.
  - right. exists (a' :: f). split; [discriminate|reflexivity].
  - left. exists (a :: b). reflexivity.
  - injection Hq as -> Hq. destruct (IH _ Hq) as [[x ->]|[y' [Hy ->]]].
    + left. exists x. reflexivity.
    + right. exists y'. split; [assumption|reflexivity].
Qed.

Lemma proper_prefix_length p f : proper_prefix p f -> (length p < length f)%nat.
Proof. intros [[|a y] [Hy ->]]; [congruence|]. rewrite app_length. cbn. lia. Qed.

Lemma proper_prefix_not_whole p f : proper_prefix p f -> p <> f.
Proof. intros H ->. apply proper_prefix_length in H. lia. Qed.

Lemma proper_prefix_app p x f : proper_prefix (p ++ x) f -> proper_prefix p f.
Proof.
  intros [y [Hy ->]]. exists (x ++ y). rewrite app_assoc. split; [|reflexivity].
  destruct x; [exact Hy|discriminate].
Qed.

Lemma Forall_nonempty_cons c cs : Forall nonempty (c :: cs) -> exists a c', c = a :: c' /\ Forall nonempty cs.
Proof. intros H. inversion H as [|? ? Hc Hcs]. destruct c; [elim Hc; reflexivity|eauto]. Qed.

Section Next.
  Context {I : Type}.
  Variable dec : list N -> list N * dres I.

  (* [next] unfolded once: the fixpoint does not reduce on a variable event list *)
  Lemma next_eq st evs bg : next dec st evs bg =
    if rerrored st then (NEnd, mkR (rbuf st) (reof st) false false, evs, bg) else
    match attempt dec st with
    | inl (r, st') => (r, st', evs, bg)
    | inr st' =>
        match evs with
        | [] => (NWait, st', [], bg)
        | RPend :: evs' =>
            match spend bg with
            | None => (NAbandon, st', evs', bg)
            | Some bg' => next dec st' evs' bg'
            end
        | RErr k :: evs' => (NErr k, mkR (rbuf st') (reof st') (rreadable st') true, evs', bg)
        | REof :: evs' | RData [] :: evs' =>
            if reof st' then (NEnd, st', evs', bg)
            else next dec (mkR (rbuf st') true true false) evs' bg
        | RData c :: evs' => next dec (mkR (rbuf st' ++ c) false true false) evs' bg
        end
    end.
  Proof. destruct evs; reflexivity. Qed.

  Lemma attempt_inr st st1 : attempt dec st = inr st1 ->
    rreadable st1 = false /\ (rerrored st = false -> rerrored st1 = false).
  Proof.
    unfold attempt. destruct (rreadable st) eqn:Hr; [|intros [= <-]; auto].
    destruct (reof st).
    - destruct (decode_eof dec (rbuf st)) as [b' []]; discriminate.
    - destruct (dec (rbuf st)) as [b' []]; try discriminate. intros [= <-]. auto.
  Qed.

  Lemma next_skip st st1 evs bg : rerrored st = false -> attempt dec st = inr st1 ->
    next dec st evs bg = next dec st1 evs bg.
  Proof.
    intros He Ha. destruct (attempt_inr _ _ Ha) as [Hr He1]. specialize (He1 He).
    rewrite (next_eq st), He, Ha. destruct st1 as [b1 e1 r1 x1]. cbn [rreadable rerrored] in Hr, He1. subst r1 x1.
    rewrite (next_eq (mkR b1 e1 false false)). reflexivity.
  Qed.

  Lemma next_after_none b b' evs bg : dec b = (b', DNone) ->
    next dec (mkR b false true false) evs bg = next dec (mkR b' false false false) evs bg.
  Proof. intros Hd. apply next_skip; [reflexivity|]. cbn [attempt rreadable reof rbuf]. rewrite Hd. reflexivity. Qed.

  (* a buffer the decoder leaves as it is counts as examined, readable or not *)
  Lemma next_quiet b rd evs bg : dec b = (b, DNone) ->
    next dec (mkR b false rd false) evs bg = next dec (mkR b false false false) evs bg.
  Proof. intros Hd. destruct rd; [apply next_after_none, Hd|reflexivity]. Qed.

  Lemma next_decoded b b' i evs bg : dec b = (b', DSome i) ->
    next dec (mkR b false true false) evs bg = (NItem i, mkR b' false true false, evs, bg).
  Proof. intros Hd. rewrite next_eq. cbn [attempt rerrored rreadable reof rbuf]. rewrite Hd. reflexivity. Qed.

  Lemma next_read b c evs bg : c <> [] ->
    next dec (mkR b false false false) (RData c :: evs) bg = next dec (mkR (b ++ c) false true false) evs bg.
  Proof. intros Hc. destruct c; [congruence|reflexivity]. Qed.

  Definition ends_stream (e : revt) : bool := match e with REof | RData [] => true | _ => false end.

  (* Induction over a run of [next], one case per way it returns or loops, in the order of [next_eq].  After the latch
     ([Platched]) and the decoding pass ([Pret], [Pskip]) every case has nothing latched or to decode and looks at one event. *)
  Section Ind.
    Variable P : rstate -> list revt -> budget -> nres I * rstate * list revt * budget -> Prop.
    Hypothesis Platched : forall st evs bg, rerrored st = true ->
      P st evs bg (NEnd, mkR (rbuf st) (reof st) false false, evs, bg).
    Hypothesis Pret : forall st evs bg r st', rerrored st = false -> attempt dec st = inl (r, st') ->
      P st evs bg (r, st', evs, bg).
    Hypothesis Pskip : forall st st1 evs bg out, rerrored st = false -> rreadable st = true ->
      attempt dec st = inr st1 -> P st1 evs bg out -> P st evs bg out.
    Hypothesis Pwait : forall st bg, rerrored st = false -> rreadable st = false -> P st [] bg (NWait, st, [], bg).
    Hypothesis Pabandon : forall st evs bg, rerrored st = false -> rreadable st = false -> spend bg = None ->
      P st (RPend :: evs) bg (NAbandon, st, evs, bg).
    Hypothesis Ppend : forall st evs bg bg' out, rerrored st = false -> rreadable st = false -> spend bg = Some bg' ->
      P st evs bg' out -> P st (RPend :: evs) bg out.
    Hypothesis Perr : forall st evs bg k, rerrored st = false -> rreadable st = false ->
      P st (RErr k :: evs) bg (NErr k, mkR (rbuf st) (reof st) false true, evs, bg).
    Hypothesis Pend : forall st e evs bg, rerrored st = false -> rreadable st = false ->
      ends_stream e = true -> reof st = true -> P st (e :: evs) bg (NEnd, st, evs, bg).
    Hypothesis Peof : forall st e evs bg out, rerrored st = false -> rreadable st = false ->
      ends_stream e = true -> reof st = false ->
      P (mkR (rbuf st) true true false) evs bg out -> P st (e :: evs) bg out.
    Hypothesis Pdata : forall st c evs bg out, rerrored st = false -> rreadable st = false -> c <> [] ->
      P (mkR (rbuf st ++ c) false true false) evs bg out -> P st (RData c :: evs) bg out.

    Lemma next_ind : forall evs st bg out, next dec st evs bg = out -> P st evs bg out.
    Proof.
      intros evs st bg out <-. revert st bg.
      assert (Hpass : forall evs,
                (forall st bg, rerrored st = false -> rreadable st = false -> P st evs bg (next dec st evs bg)) ->
                forall st bg, P st evs bg (next dec st evs bg)).
      { intros evs0 Hq st bg. destruct (rerrored st) eqn:He; [rewrite next_eq, He; apply Platched, He|].
        destruct (rreadable st) eqn:Hr; [|apply Hq; assumption].
        destruct (attempt dec st) as [[r st']|st1] eqn:Ha; [rewrite next_eq, He, Ha; apply Pret; assumption|].
        rewrite (next_skip _ _ _ _ He Ha). destruct (attempt_inr _ _ Ha) as [Hr1 He1].
        apply (Pskip _ _ _ _ _ He Hr Ha), Hq; auto. }
      induction evs as [|e evs IH]; apply Hpass; intros st bg He Hr; rewrite next_eq, He; unfold attempt; rewrite Hr.
      - apply Pwait; assumption.
      - destruct e as [[|c0 c]| |k|].
        + destruct (reof st) eqn:Hf; [apply Pend|apply Peof]; auto.
        + apply Pdata; [auto|auto|discriminate|apply IH].
        + destruct (reof st) eqn:Hf; [apply Pend|apply Peof]; auto.
        + rewrite Hr. apply Perr; auto.
        + destruct (spend bg) eqn:Hs; [eapply Ppend|apply Pabandon]; eauto.
    Qed.
  End Ind.

  Definition undecided (d : list N) : Prop := forall q y, d = q ++ y -> dec q = (q, DNone).

  Lemma undecided_self d : undecided d -> dec d = (d, DNone).
  Proof. intros H. apply (H d []). symmetry. apply app_nil_r. Qed.

  Lemma nil_undecided : dec [] = ([], DNone) -> undecided [].
  Proof. intros Hd q y Hq. symmetry in Hq. apply app_eq_nil in Hq. destruct Hq as [-> _]. exact Hd. Qed.

  Lemma next_undecided : forall cs b rd tl bg, Forall nonempty cs -> undecided (b ++ concat cs) ->
    next dec (mkR b false rd false) (datas cs ++ tl) bg = next dec (mkR (b ++ concat cs) false false false) tl bg.
  Proof.
    induction cs as [|c cs IH]; intros b rd tl bg Hne Hu; cbn [concat datas map app] in *.
    - rewrite app_nil_r in *. apply next_quiet, undecided_self, Hu.
    - destruct (Forall_nonempty_cons _ _ Hne) as (a & c' & -> & Hne').
      rewrite (next_quiet b rd _ _ (Hu b _ eq_refl)), next_read by discriminate.
      rewrite app_assoc in *. apply IH; assumption.
  Qed.

  Lemma next_undecided_err cs b rd k tl bg : Forall nonempty cs -> undecided (b ++ concat cs) ->
    next dec (mkR b false rd false) (datas cs ++ RErr k :: tl) bg = (NErr k, mkR (b ++ concat cs) false false true, tl, bg).
  Proof. intros Hne Hu. rewrite next_undecided by assumption. apply next_eq. Qed.

  (* end of stream: tokio-util's "bytes remaining on stream" if any byte was received, else a clean end *)
  Lemma next_undecided_eof cs b rd tl bg : Forall nonempty cs -> undecided (b ++ concat cs) ->
    exists st', next dec (mkR b false rd false) (datas cs ++ REof :: tl) bg =
                (match b ++ concat cs with [] => NEnd | _ => NErr (KOther 0) end, st', tl, bg).
  Proof.
    intros Hne Hu. rewrite next_undecided by assumption.
    (* the event sets the flag and makes the buffer readable; the pass that follows is [decode_eof] *)
    rewrite next_eq. cbn [attempt rerrored rreadable reof].
    rewrite next_eq. cbn [attempt rerrored rreadable reof rbuf]. unfold decode_eof.
    rewrite (undecided_self _ Hu). destruct (b ++ concat cs); eauto.
  Qed.
End Next.

Section Frag.
  Context {I : Type}.
  Variable dec : list N -> list N * dres I.

  Variable valid : list N -> I -> Prop.
  Hypothesis H1 : forall f i x, valid f i -> dec (f ++ x) = (x, DSome i).
  Hypothesis H2 : forall f i p, valid f i -> proper_prefix p f -> dec p = (p, DNone).

  Lemma prefix_undecided f i d : valid f i -> proper_prefix d f -> undecided dec d.
  Proof. intros Hv Hp q y ->. exact (H2 f i q Hv (proper_prefix_app _ _ _ Hp)). Qed.

  (* the induction goes through with: a buffer that is not readable has been examined and found incomplete *)
  Lemma next_item_tl : forall cs b rd f i rest bg tl,
      valid f i -> Forall nonempty cs ->
      b ++ concat cs = f ++ rest ->
      (rd = false -> proper_prefix b f) ->
      exists b' cs', next dec (mkR b false rd false) (datas cs ++ tl) bg = (NItem i, mkR b' false true false, datas cs' ++ tl, bg)
                     /\ b' ++ concat cs' = rest /\ Forall nonempty cs'.
  Proof.
    induction cs as [|c cs IH]; intros b rd f i rest bg tl Hv Hne Heq Hinv.
    - rewrite app_nil_r in Heq. subst b. destruct rd.
      + exists rest, []. rewrite (next_decoded dec _ _ _ _ _ (H1 _ _ rest Hv)), app_nil_r. auto.
      + apply proper_prefix_length in Hinv; [rewrite app_length in Hinv; lia|reflexivity].
    - destruct (Forall_nonempty_cons _ _ Hne) as (a & c' & -> & Hne').
      assert (Hcase : (rd = true /\ exists x, b = f ++ x) \/ proper_prefix b f).
      { destruct rd; [|auto]. destruct (app_split _ _ _ _ Heq); auto. }
      destruct Hcase as [[-> [x ->]]|Hp].
      + exists x, ((a :: c') :: cs). rewrite <- app_assoc in Heq. apply app_inv_head in Heq.
        rewrite (next_decoded dec _ _ _ _ _ (H1 _ _ x Hv)). auto.
      + cbn [datas map app]. rewrite (next_quiet dec b rd _ _ (H2 _ _ _ Hv Hp)), next_read by discriminate.
        apply (IH (b ++ a :: c') true f i rest bg tl Hv Hne'); [rewrite <- app_assoc; exact Heq|discriminate].
  Qed.

  Lemma next_item : forall cs b rd f i rest bg,
      valid f i -> Forall nonempty cs ->
      b ++ concat cs = f ++ rest ->
      (rd = false -> proper_prefix b f) ->
      exists b' cs', next dec (mkR b false rd false) (datas cs) bg = (NItem i, mkR b' false true false, datas cs', bg)
                     /\ b' ++ concat cs' = rest /\ Forall nonempty cs'.
  Proof.
    intros cs b rd f i rest bg Hv Hne Heq Hinv.
    destruct (next_item_tl cs b rd f i rest bg [] Hv Hne Heq Hinv) as (b' & cs' & Hn & Hr).
    rewrite !app_nil_r in Hn. eauto.
  Qed.

  (* nothing is delivered, and no byte is lost, while the frame is incomplete *)
  Lemma next_incomplete : forall cs b rd f i bg,
      valid f i -> Forall nonempty cs -> proper_prefix (b ++ concat cs) f ->
      exists st', next dec (mkR b false rd false) (datas cs) bg = (NWait, st', [], bg) /\ rbuf st' = b ++ concat cs.
  Proof.
    intros cs b rd f i bg Hv Hne Hp. rewrite <- (app_nil_r (datas cs)).
    rewrite (next_undecided dec cs b rd [] bg Hne (prefix_undecided _ _ _ Hv Hp)).
    exists (mkR (b ++ concat cs) false false false). split; reflexivity.
  Qed.

  (* Every frame of a stream is delivered once, in order, in any chunking.  Between frames a buffer that is not
     readable is empty: a proper prefix of the next frame, frames being non-empty. *)
  Hypothesis valid_nonempty : forall f i, valid f i -> f <> [].

  Fixpoint take_items (n : nat) (st : rstate) (evs : list revt) : option (list I * rstate * list revt) :=
    match n with
    | O => Some ([], st, evs)
    | S k =>
        match next dec st evs None with
        | (NItem i, st', evs', _) =>
            match take_items k st' evs' with
            | Some (is, s, e) => Some (i :: is, s, e)
            | None => None
            end
        | _ => None
        end
    end.

  Lemma frames_from : forall fs is cs b rd rest tl,
      Forall2 valid fs is -> Forall nonempty cs ->
      b ++ concat cs = concat fs ++ rest ->
      (rd = false -> b = []) ->
      exists b' cs', take_items (length fs) (mkR b false rd false) (datas cs ++ tl) =
                       Some (is, mkR b' false (match fs with [] => rd | _ => true end) false, datas cs' ++ tl)
                     /\ b' ++ concat cs' = rest /\ Forall nonempty cs'.
  Proof.
    induction fs as [|f fs IH]; intros is cs b rd rest tl Hv Hne Heq Hinv.
    - inversion Hv. exists b, cs. auto.
    - inversion Hv as [|? i ? is' Hvf Hvr]. cbn [concat] in Heq. rewrite <- app_assoc in Heq.
      destruct (next_item_tl cs b rd f i (concat fs ++ rest) None tl Hvf Hne Heq) as (b' & cs' & Hn & Hr & Hf).
      { intros Hrd. rewrite (Hinv Hrd). exists f. split; [eapply valid_nonempty; eauto|reflexivity]. }
      destruct (IH is' cs' b' true rest tl Hvr Hf Hr ltac:(discriminate)) as (b'' & cs'' & Ht & Hrest).
      exists b'', cs''. cbn [length take_items]. rewrite Hn, Ht. destruct fs; auto.
  Qed.

  Theorem frames_any_chunking : forall fs is cs,
      Forall2 valid fs is -> Forall nonempty cs -> concat cs = concat fs ->
      exists st' cs', take_items (length fs) rstate0 (datas cs) = Some (is, st', datas cs')
                      /\ rbuf st' ++ concat cs' = [].
  Proof.
    intros fs is cs Hv Hne Heq.
    destruct (frames_from fs is cs [] false [] [] Hv Hne) as (b' & cs' & Ht & Hr & _); [cbn; rewrite app_nil_r; exact Heq|auto|].
    rewrite !app_nil_r in Ht. eauto.
  Qed.
End Frag.
