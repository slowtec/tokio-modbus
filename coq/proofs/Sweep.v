(* Sweep.v -- lifting a boolean check computed over a finite range to a universally
   quantified statement. *)
From Coq Require Import List NArith Lia.
Import ListNotations.
Open Scope N_scope.

Fixpoint nrange_from (start : N) (cnt : nat) : list N :=
  match cnt with O => [] | S c => start :: nrange_from (N.succ start) c end.
Definition nrange (n : N) : list N := nrange_from 0 (N.to_nat n).

Lemma nrange_from_in : forall cnt start b, start <= b -> b < start + N.of_nat cnt -> In b (nrange_from start cnt).
Proof.
  induction cnt as [|c IH]; intros start b H1 H2.
  - lia.
  - cbn [nrange_from]. destruct (N.eq_dec start b) as [->|Hne]; [left; reflexivity|].
    right. apply IH; lia.
Qed.

Lemma nrange_in b n : b < n -> In b (nrange n).
Proof. intros H. unfold nrange. apply nrange_from_in; lia. Qed.

Lemma sweep (P : N -> bool) (n : N) :
  forallb P (nrange n) = true -> forall b, b < n -> P b = true.
Proof.
  intros H b Hb. rewrite forallb_forall in H. apply H. apply nrange_in. exact Hb.
Qed.

