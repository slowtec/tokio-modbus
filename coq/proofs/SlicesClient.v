(* SlicesClient.v -- the replies consumed by the calls of ANY client history (completed, failed, mismatching,
   abandoned calls, slave changes, disconnects; any reply bytes, fragmentation, faults) are carried by disjoint
   slices of the bytes the transport delivered, in stream order: clearing the receive buffer before each call and
   draining after an error only ever DROP bytes. *)
From TM Require Import Base Pdu RtuCodec Framed Client BaseLemmas RtuProofs ClientProofs Histories Slices.

Definition stream (st : cstate) : list N := rbuf (rst st) ++ sdata (rq st).

Theorem call_slices p m st req bg : bytes_ok (stream st) = true ->
  Slices (client_slice p) (stream st) (match call_reply p m st req bg with Some i => [i] | None => [] end)
         (stream (snd (call p m st req bg))).
Proof.
  intros Hok. unfold stream in *.
  destruct (call_is p m st req bg) as [| |w bg1 nr r1 q1 bg2 _ _ Hn].
  - apply (Sl_nil _ []).
  - apply (Sl_nil _ (rbuf (rst st))).
  - (* clearing the receive buffer drops what it held; then [next] splits the rest *)
    apply Slices_drop.
    pose proof (next_slices _ _ (client_dec_seg p) (rq st) (cleared (rst st)) _ _ _ _ _ (bytes_ok_tail _ _ Hok) Hn) as Hs.
    destruct nr; exact Hs.
Qed.

Fixpoint replies (p : proto) (m : mode) (st : cstate) (ops : list op) : list (hdr * rsp_result) :=
  match ops with
  | [] => []
  | o :: ops' =>
      (match o with
       | OCall _ req bg w f r => match call_reply p m (push st w f r) req bg with Some i => [i] | None => [] end
       | _ => []
       end) ++ replies p m (run_op p m st o) ops'
  end.

Fixpoint delivered (ops : list op) : list N :=
  match ops with
  | [] => []
  | OCall _ _ _ _ _ r :: ops' => sdata r ++ delivered ops'
  | _ :: ops' => delivered ops'
  end.

Lemma stream_push st w f r : stream (push st w f r) = stream st ++ sdata r.
Proof. unfold stream, push. cbn [rst rq]. rewrite sdata_app, app_assoc. reflexivity. Qed.

Theorem history_slices p m : forall ops st,
  bytes_ok (stream st ++ delivered ops) = true ->
  Slices (client_slice p) (stream st ++ delivered ops) (replies p m st ops) (stream (run_ops p m st ops)).
Proof.
  induction ops as [|o ops IH]; intros st Hok.
  - cbn [delivered replies run_ops fold_left]. rewrite app_nil_r. apply (Sl_nil _ []).
  - unfold run_ops. cbn [fold_left]. fold (run_ops p m (run_op p m st o) ops).
    destruct o as [t req bg w f r|s|sd]; cbn [delivered replies app] in *.
    + rewrite run_op_call. rewrite app_assoc, <- (stream_push st w f) in *.
      pose proof (Slices_more _ _ _ _ (delivered ops) (call_slices p m _ req bg (bytes_ok_head _ _ Hok))) as Hc.
      exact (Slices_trans _ _ _ _ _ _ Hc (IH _ (Slices_bytes_ok _ _ _ _ Hc Hok))).
    + apply (IH (set_slave st s)). exact Hok.
    + cbn [run_op]. destruct (disconnect_state (push_sd st sd)) as (f & q & n & Hd).
      replace (stream st) with (stream (snd (disconnect (push_sd st sd)))) in * by (rewrite Hd; reflexivity). apply IH. exact Hok.
Qed.
