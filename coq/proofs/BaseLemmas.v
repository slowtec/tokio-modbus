(* BaseLemmas.v -- facts about Base.v.  It also loads lia's extensions (bool, nat, N with / and mod) for the files downstream. *)
From Coq Require Import Lia ZifyBool ZifyNat ZifyN.
From TM Require Import Base.

Lemma len_nil {A} : len (@nil A) = 0.
Proof. reflexivity. Qed.
Lemma len_cons {A} (x : A) l : len (x :: l) = 1 + len l.
Proof. unfold len. cbn [length]. lia. Qed.
Lemma len_app {A} (a b : list A) : len (a ++ b) = len a + len b.
Proof. unfold len. rewrite app_length. lia. Qed.
Lemma len_length {A} (l : list A) : N.to_nat (len l) = length l.
Proof. unfold len. lia. Qed.

Lemma len_be16 w : len (be16 w) = 2.
Proof. reflexivity. Qed.
Lemma len_firstn {A} (l : list A) n : len (firstn (N.to_nat n) l) = N.min n (len l).
Proof. unfold len. rewrite firstn_length. lia. Qed.

Lemma firstn_len_app {A} (a b : list A) : firstn (N.to_nat (len a)) (a ++ b) = a.
Proof. rewrite len_length, firstn_app, Nat.sub_diag, firstn_all. apply app_nil_r. Qed.
Lemma skipn_len_app {A} (a b : list A) : skipn (N.to_nat (len a)) (a ++ b) = b.
Proof. rewrite len_length, skipn_app, Nat.sub_diag, skipn_all. reflexivity. Qed.

Lemma if_Some {A} (c : bool) (x y : A) : (if c then Some x else None) = Some y <-> c = true /\ x = y.
Proof. destruct c; split; [intros [= <-]; auto|intros [_ <-]; reflexivity|discriminate|intros [[=] _]]. Qed.
Lemma if_None {A} (c : bool) (x : A) : c = false -> (if c then Some x else None) = None.
Proof. intros ->. reflexivity. Qed.

(* associativity of bind; h is what the two inner steps come to *)
Lemma bind_bind {A B C} (o : outcome A) (f : A -> outcome B) (g : B -> outcome C) (h : A -> outcome C) :
  (forall a, bind (f a) g = h a) -> bind (bind o f) g = bind o h.
Proof. intros H. destruct o; [apply H|reflexivity..]. Qed.

Lemma u16_len_fits m n : n <= 65535 -> u16_len m n = Val n.
Proof. intros H. unfold u16_len. destruct (N.ltb_spec 65535 n); [lia|reflexivity]. Qed.
Lemma u8_len_fits m n : n <= 255 -> u8_len m n = Val n.
Proof. intros H. unfold u8_len. destruct (N.ltb_spec 255 n); [lia|reflexivity]. Qed.

(* over the limit `len as u16` panics (debug) or truncates (release): P Panic is asked for whatever the mode and nothing
   is said of the truncated c, so one use covers both *)
Lemma bind_u16_len {B} (P : outcome B -> Prop) m n (f : N -> outcome B) :
  (forall c, (n <= 65535 -> c = n) -> P (f c)) -> (65535 < n -> P Panic) -> P (c <- u16_len m n ;; f c).
Proof.
  intros Hv Hp. unfold u16_len. destruct (N.ltb_spec 65535 n); [destruct (dbg m)|]; cbn [bind]; auto; apply Hv; lia.
Qed.
Lemma bind_u8_len {B} (P : outcome B -> Prop) m n (f : N -> outcome B) :
  (forall c, (n <= 255 -> c = n) -> P (f c)) -> (255 < n -> P Panic) -> P (c <- u8_len m n ;; f c).
Proof.
  intros Hv Hp. unfold u8_len. destruct (N.ltb_spec 255 n); [destruct (dbg m)|]; cbn [bind]; auto; apply Hv; lia.
Qed.

Lemma hi8_lt w : hi8 w < 256.
Proof. unfold hi8. lia. Qed.
Lemma lo8_lt w : lo8 w < 256.
Proof. unfold lo8. lia. Qed.
Lemma of_be16_hi_lo w : w < 65536 -> of_be16 (hi8 w) (lo8 w) = w.
Proof. unfold of_be16, hi8, lo8. lia. Qed.
Lemma of_be16_lt h l : h < 256 -> l < 256 -> of_be16 h l < 65536.
Proof. unfold of_be16. lia. Qed.
Lemma hi_lo_of_be16 h l : h < 256 -> l < 256 -> hi8 (of_be16 h l) = h /\ lo8 (of_be16 h l) = l.
Proof. unfold of_be16, hi8, lo8. split; lia. Qed.

Lemma byte_ok_lt b : byte_ok b = true <-> b < 256.
Proof. unfold byte_ok. lia. Qed.
Lemma word_ok_lt w : word_ok w = true <-> w < 65536.
Proof. unfold word_ok. lia. Qed.

Lemma bytes_ok_cons b l : bytes_ok (b :: l) = true <-> b < 256 /\ bytes_ok l = true.
Proof. cbn [bytes_ok forallb]. rewrite andb_true_iff, byte_ok_lt. reflexivity. Qed.
Lemma words_ok_cons w ws : words_ok (w :: ws) = true <-> w < 65536 /\ words_ok ws = true.
Proof. cbn [words_ok forallb]. rewrite andb_true_iff, word_ok_lt. reflexivity. Qed.
Lemma bytes_ok_app a b : bytes_ok (a ++ b) = bytes_ok a && bytes_ok b.
Proof. unfold bytes_ok. apply forallb_app. Qed.
Lemma bytes_ok_tail a b : bytes_ok (a ++ b) = true -> bytes_ok b = true.
Proof. rewrite bytes_ok_app. intros H. apply andb_prop in H. tauto. Qed.
Lemma bytes_ok_head a b : bytes_ok (a ++ b) = true -> bytes_ok a = true.
Proof. rewrite bytes_ok_app. intros H. apply andb_prop in H. tauto. Qed.
Lemma bytes_ok_be16 w : bytes_ok (be16 w) = true.
Proof. unfold be16, bytes_ok. cbn [forallb]. pose proof (hi8_lt w). pose proof (lo8_lt w). unfold byte_ok. lia. Qed.
Lemma bytes_ok_be16s ws : bytes_ok (be16s ws) = true.
Proof.
  induction ws as [|w ws IH]; [reflexivity|]. unfold be16s in *. cbn [flat_map].
  rewrite bytes_ok_app, bytes_ok_be16, IH. reflexivity.
Qed.

Lemma len_be16s ws : len (be16s ws) = 2 * len ws.
Proof. induction ws as [|w ws IH]; [reflexivity|]. unfold be16s in *. cbn [flat_map be16 app]. rewrite !len_cons. lia. Qed.

#[export] Hint Rewrite @len_nil @len_cons @len_app len_be16 len_be16s : len.

Lemma rd16_be16 w r : w < 65536 -> rd16 (be16 w ++ r) = Val (w, r).
Proof. intros H. unfold be16. cbn [app rd16]. rewrite of_be16_hi_lo by exact H. reflexivity. Qed.

Lemma rd16s_be16s ws r : words_ok ws = true -> rd16s (length ws) (be16s ws ++ r) = Val (ws, r).
Proof.
  induction ws as [|w ws IH]; intros H; [reflexivity|].
  apply words_ok_cons in H as [Hw Hws].
  unfold be16s. cbn [flat_map length rd16s]. rewrite <- app_assoc. rewrite rd16_be16 by exact Hw.
  cbn [bind]. fold (be16s ws). rewrite IH by exact Hws. reflexivity.
Qed.

Fixpoint words_of (l : list N) : list N :=
  match l with h :: lo :: r => of_be16 h lo :: words_of r | _ => [] end.

Lemma pairs_ind {A} (P : list A -> Prop) :
  P [] -> (forall x, P [x]) -> (forall x y l, P l -> P (x :: y :: l)) -> forall l, P l.
Proof. intros H0 H1 H2. fix IH 1. intros [|x [|y l]]; [exact H0|exact (H1 x)|exact (H2 x y l (IH l))]. Qed.

Lemma rd16s_eq : forall n l, rd16s n l =
  if (2 * n <=? length l)%nat then Val (words_of (firstn (2 * n) l), skipn (2 * n) l) else Fail KUnexpectedEof.
Proof.
  induction n as [|n IH]; [reflexivity|]. replace (2 * S n)%nat with (S (S (2 * n))) by lia.
  destruct l as [|h [|lo r]]; try reflexivity. cbn [rd16s rd16 bind length skipn Nat.leb].
  rewrite IH. destruct (2 * n <=? length r)%nat; reflexivity.
Qed.
Lemma rd8s_eq : forall n l, rd8s n l =
  if (n <=? length l)%nat then Val (firstn n l, skipn n l) else Fail KUnexpectedEof.
Proof.
  induction n as [|n IH]; intros [|b r]; try reflexivity. cbn [rd8s rd8 bind length skipn Nat.leb].
  rewrite IH. destruct (n <=? length r)%nat; reflexivity.
Qed.

Lemma rd16s_no_panic : forall n l, rd16s n l <> Panic.
Proof. intros n l. rewrite rd16s_eq. destruct (2 * n <=? length l)%nat; discriminate. Qed.

Lemma words_of_be16s ws : words_ok ws = true -> words_of (be16s ws) = ws.
Proof.
  induction ws as [|w ws IH]; intros H; [reflexivity|].
  apply words_ok_cons in H as [Hw Hws].
  unfold be16s. cbn [flat_map be16 app words_of]. fold (be16s ws). rewrite of_be16_hi_lo by exact Hw. rewrite IH by exact Hws. reflexivity.
Qed.
Lemma words_of_ok : forall l, bytes_ok l = true -> words_ok (words_of l) = true.
Proof.
  induction l as [| |h lo r IH] using pairs_ind; intros H; try reflexivity.
  apply bytes_ok_cons in H as [Hh H]. apply bytes_ok_cons in H as [Hl H].
  cbn [words_of]. apply words_ok_cons. split; [apply of_be16_lt; assumption|exact (IH H)].
Qed.
Lemma len_words_of : forall l, len (words_of l) = len l / 2.
Proof.
  induction l as [| |h lo r IH] using pairs_ind; try reflexivity.
  cbn [words_of]. rewrite !len_cons. lia.
Qed.
Lemma be16s_words_of : forall l, bytes_ok l = true -> Nat.even (length l) = true -> be16s (words_of l) = l.
Proof.
  induction l as [| |h lo r IH] using pairs_ind; intros H He; try reflexivity; [discriminate|].
  apply bytes_ok_cons in H as [Hh H]. apply bytes_ok_cons in H as [Hl H].
  cbn [words_of]. unfold be16s. cbn [flat_map be16 app]. fold (be16s (words_of r)).
  destruct (hi_lo_of_be16 h lo Hh Hl) as [-> ->]. rewrite IH; auto.
Qed.
