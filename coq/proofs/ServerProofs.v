(* ServerProofs.v -- on a stream of valid frames, under every chunking, [process] does what [served] does
   on the list of decoded requests (C07); how a connection ends (C14). *)
From TM Require Import Base Frame Pdu RtuCodec Framed Client Server FramedProofs Codecs TcpProofs StreamProofs.

Definition server_valid (p : proto) : list N -> hdr * request -> Prop :=
  match p with TCP => valid_req_frame | RTU => valid_rtu_req end.
Lemma server_valid_side p : server_valid p = side_valid p req_pdu_len dec_req.
Proof. destruct p; reflexivity. Qed.
Lemma server_H1 p f i x : server_valid p f i -> server_dec p (f ++ x) = (x, DSome i).
Proof. rewrite server_valid_side, server_dec_eq. apply side_H1. Qed.
Lemma server_H2 p f i q : server_valid p f i -> proper_prefix q f -> server_dec p q = (q, DNone).
Proof. rewrite server_valid_side, server_dec_eq. apply side_H2. Qed.
Lemma server_valid_nonempty p f i : server_valid p f i -> f <> [].
Proof. rewrite server_valid_side. apply side_valid_nonempty. Qed.
Lemma server_dec_nil p : server_dec p [] = ([], DNone).
Proof. destruct p; reflexivity. Qed.

(* what the service's answer becomes on the wire (OptionalResponsePdu) *)
Definition reply_of (req : request) (rep : svc_reply) : option rsp_result :=
  match rep with
  | SDecline => None
  | SReply r => Some (RROk r)
  | SExc c => Some (RRExc {| exr_function := req_fc req; exr_exception := c |})
  end.

(* the loop body over the list of decoded requests: per request one service invocation, then at most one
   send of the reply under that request's own header.  The answer taken ([hd SDecline svc], as a match) and
   the match on [send]'s result are copied from [Server.process]. *)
Fixpoint served (p : proto) (m : mode) (is : list (hdr * request)) (svc : list svc_reply) (w : wio)
         (cont : list svc_reply -> wio -> list tev) : list tev :=
  match is with
  | [] => cont svc w
  | (h, req) :: is' =>
      TCall (snd h) req ::
      match reply_of req (match svc with [] => SDecline | x :: _ => x end) with
      | None => served p m is' (tl svc) w cont
      | Some rr =>
          match send (server_enc p m h rr) (mkW (wbuf w) (wq w) (fq w) []) None with
          | (_, w1, _, true) => wrote (accepted w1) ++ [TPanic]
          | (SOk, w1, _, _) => wrote (accepted w1) ++ served p m is' (tl svc) w1 cont
          | (SErr k, w1, _, _) => wrote (accepted w1) ++ [TReport k]
          | (_, w1, _, _) => wrote (accepted w1) ++ [TWaiting]
          end
      end
  end.

(* that match on [send]'s result; None: the reply went out whole and the loop goes on *)
Definition send_end (sr : sres) (pn : bool) : option tev :=
  if pn then Some TPanic else
  match sr with SOk => None | SErr k => Some (TReport k) | _ => Some TWaiting end.

Definition read_end {I} (nr : nres I) : tev :=
  match nr with NErr k => TReport k | NEnd => TClosed | NPanic => TPanic | _ => TWaiting end.

(* one iteration of [process], its three decisions named *)
Lemma process_S fuel p m r w q svc : process (S fuel) p m r w q svc =
  let '(nr, r1, q1, _) := next (server_dec p) r q None in
  match nr with
  | NItem (h, req) =>
      TCall (snd h) req ::
      match reply_of req (hd SDecline svc) with
      | None => process fuel p m r1 w q1 (tl svc)
      | Some rr =>
          let '(sr, w1, _, pn) := send (server_enc p m h rr) (mkW (wbuf w) (wq w) (fq w) []) None in
          wrote (accepted w1) ++
          match send_end sr pn with Some e => [e] | None => process fuel p m r1 w1 q1 (tl svc) end
      end
  | _ => [read_end nr]
  end.
Proof.
  cbn [process]. destruct (next _ r q None) as [[[[[h req]| | | | |] r1] q1] bg]; try reflexivity.
  destruct svc as [|[]]; try reflexivity; cbn [hd reply_of tl];
    destruct (send _ _ None) as [[[[] w1] bg'] []]; reflexivity.
Qed.

Section ProcessInd.
  Variables (p : proto) (m : mode).
  Variable P : nat -> rstate -> wio -> list revt -> list svc_reply -> list tev -> Prop.
  Hypothesis P0 : forall r w q svc, P 0 r w q svc [TOutOfFuel].
  Hypothesis Pend : forall fuel r w q svc nr r1 q1 bg,
    next (server_dec p) r q None = (nr, r1, q1, bg) -> (forall i, nr <> NItem i) ->
    P (S fuel) r w q svc [read_end nr].
  Hypothesis Pdecline : forall fuel r w q svc h req r1 q1 bg t,
    next (server_dec p) r q None = (NItem (h, req), r1, q1, bg) ->
    reply_of req (hd SDecline svc) = None ->
    P fuel r1 w q1 (tl svc) t -> P (S fuel) r w q svc (TCall (snd h) req :: t).
  (* split by [send_end]: a user destructs [sr], [pn] to read it *)
  Hypothesis Psend : forall fuel r w q svc h req r1 q1 bg rr sr w1 bg1 pn,
    next (server_dec p) r q None = (NItem (h, req), r1, q1, bg) ->
    reply_of req (hd SDecline svc) = Some rr ->
    send (server_enc p m h rr) (mkW (wbuf w) (wq w) (fq w) []) None = (sr, w1, bg1, pn) ->
    match send_end sr pn with
    | Some e => P (S fuel) r w q svc (TCall (snd h) req :: wrote (accepted w1) ++ [e])
    | None => forall t, P fuel r1 w1 q1 (tl svc) t ->
              P (S fuel) r w q svc (TCall (snd h) req :: wrote (accepted w1) ++ t)
    end.

  Lemma process_ind : forall fuel r w q svc, P fuel r w q svc (process fuel p m r w q svc).
  Proof.
    induction fuel as [|fuel IH]; intros r w q svc; [apply P0|]. rewrite process_S.
    destruct (next _ r q None) as [[[nr r1] q1] bg] eqn:Hn.
    destruct nr as [[h req]| | | | |]; try (eapply Pend; [exact Hn|discriminate]).
    destruct (reply_of req _) as [rr|] eqn:Hr; [|eapply Pdecline; eauto].
    destruct (send _ _ None) as [[[sr w1] bg1] pn] eqn:Hs.
    pose proof (Psend fuel r w q svc h req r1 q1 bg rr sr w1 bg1 pn Hn Hr Hs) as H.
    destruct (send_end sr pn); [exact H|apply H, IH].
  Qed.
End ProcessInd.

(* as long as [next] hands up items the loop serves them: [process] over [take_items], for any stream *)
Lemma process_items p m : forall n r q is r' q' fuel w svc,
  take_items (server_dec p) n r q = Some (is, r', q') ->
  process (n + fuel) p m r w q svc = served p m is svc w (fun svc' w' => process fuel p m r' w' q' svc').
Proof.
  induction n as [|n IH]; intros r q is r' q' fuel w svc H; cbn [take_items] in H; [injection H as <- <- <-; reflexivity|].
  destruct (next _ r q None) as [[[[[h req]| | | | |] r1] q1] bg] eqn:Hn; try discriminate.
  destruct (take_items _ n r1 q1) as [[[is1 s1] e1]|] eqn:Ht; [|discriminate]. injection H as <- <- <-.
  cbn [Nat.add]. rewrite process_S, Hn. cbn [served]. f_equal.
  change (match svc with [] => SDecline | x :: _ => x end) with (hd SDecline svc).
  destruct (reply_of req _) as [rr|]; [|exact (IH _ _ _ _ _ fuel w _ Ht)].
  destruct (send _ _ _) as [[[[] w1] bg1] []]; cbn [send_end]; rewrite ?(IH _ _ _ _ _ fuel w1 _ Ht); reflexivity.
Qed.

(* C07: the fragmentation theorem under the loop.  [rd = false -> b = []]: a buffer not marked readable is decoded
   only after the next read, so it must not hold a frame yet. *)
Theorem process_serves p m : forall fs is cs b rd tl svc w fuel,
  Forall2 (server_valid p) fs is -> Forall nonempty cs ->
  b ++ concat cs = concat fs -> (rd = false -> b = []) ->
  process (length fs + fuel) p m (mkR b false rd false) w (datas cs ++ tl) svc =
  served p m is svc w (fun svc' w' =>
    process fuel p m (mkR [] false (match fs with [] => rd | _ => true end) false) w' tl svc').
Proof.
  intros fs is cs b rd tl svc w fuel Hv Hne Heq Hinv.
  destruct (frames_from (server_dec p) (server_valid p) (server_H1 p) (server_H2 p) (server_valid_nonempty p) fs is cs b rd [] tl Hv Hne)
    as (b' & cs' & Ht & Hr & Hne'); [rewrite app_nil_r; exact Heq|exact Hinv|].
  apply app_eq_nil in Hr as [-> Hcs]. destruct cs' as [|c cs']; [exact (process_items p m _ _ _ _ _ _ fuel w svc Ht)|].
  destruct (Forall_nonempty_cons _ _ Hne') as (a & c' & -> & _). discriminate Hcs.
Qed.

(* C14: the end of a connection after the last complete frame; the bytes received since are undecided
   (nothing, or the beginning of a frame) *)
Section Ends.
  Variables (p : proto) (m : mode) (fuel : nat) (rd : bool) (w : wio) (svc : list svc_reply) (cs : list (list N)) (tl : list revt).
  Hypothesis Hne : Forall nonempty cs.
  Hypothesis Hu : undecided (server_dec p) (concat cs).

  Lemma undecided_then_waiting : process (S fuel) p m (mkR [] false rd false) w (datas cs) svc = [TWaiting].
  Proof. rewrite process_S, <- (app_nil_r (datas cs)), (next_undecided _ cs [] rd [] None Hne Hu). reflexivity. Qed.

  (* silently on a frame boundary, with one report inside a frame *)
  Lemma undecided_then_eof : process (S fuel) p m (mkR [] false rd false) w (datas cs ++ REof :: tl) svc =
    [match concat cs with [] => TClosed | _ => TReport (KOther 0) end].
  Proof. rewrite process_S. destruct (next_undecided_eof _ cs [] rd tl None Hne Hu) as (st' & ->). destruct (concat cs); reflexivity. Qed.

  Lemma undecided_then_error k : process (S fuel) p m (mkR [] false rd false) w (datas cs ++ RErr k :: tl) svc = [TReport k].
  Proof. rewrite process_S, (next_undecided_err _ cs [] rd k tl None Hne Hu). reflexivity. Qed.
End Ends.

Lemma undecided_nil p : undecided (server_dec p) [].
Proof. exact (nil_undecided _ (server_dec_nil p)). Qed.

Lemma end_waiting p m fuel rd w svc : process (S fuel) p m (mkR [] false rd false) w [] svc = [TWaiting].
Proof. exact (undecided_then_waiting p m fuel rd w svc [] (Forall_nil _) (undecided_nil p)). Qed.

(* [served] on the default transport (nothing buffered, no write or flush script: every write is accepted
   whole) is [trace_default], a plain function of requests and service answers *)
Definition w_default (w : wio) : Prop := wbuf w = [] /\ wq w = [] /\ fq w = [].

Lemma send_default f w : w_default w ->
  send (Val f) (mkW (wbuf w) (wq w) (fq w) []) None = (SOk, mkW [] [] [] f, None, false).
Proof. intros (-> & -> & ->). destruct f; reflexivity. Qed.

Fixpoint trace_default (p : proto) (m : mode) (is : list (hdr * request)) (svc : list svc_reply) (fin : list tev) : list tev :=
  match is with
  | [] => fin
  | (h, req) :: is' =>
      TCall (snd h) req ::
      match reply_of req (match svc with [] => SDecline | x :: _ => x end) with
      | None => trace_default p m is' (tl svc) fin
      | Some rr =>
          match server_enc p m h rr with
          | Val f => TWrote f :: trace_default p m is' (tl svc) fin
          | Fail k => [TReport k]
          | Panic => [TPanic]
          end
      end
  end.

Lemma served_default p m fin : forall is svc w,
  w_default w ->
  (forall h req rr f, In (h, req) is -> server_enc p m h rr = Val f -> f <> []) ->
  served p m is svc w (fun _ _ => fin) = trace_default p m is svc fin.
Proof.
  induction is as [|[h req] is IH]; intros svc w Hw Hne; [reflexivity|].
  assert (IH' : forall w', w_default w' -> served p m is (tl svc) w' (fun _ _ => fin) = trace_default p m is (tl svc) fin).
  { intros w' Hw'. apply IH; [exact Hw'|]. intros h0 req0 rr0 f0 Hin. exact (Hne h0 req0 rr0 f0 (or_intror Hin)). }
  cbn [served trace_default]. f_equal. destruct (reply_of req _) as [rr|]; [|exact (IH' w Hw)].
  destruct (server_enc p m h rr) as [f|k|] eqn:He; [|destruct Hw as (-> & -> & ->); reflexivity..].
  pose proof (Hne h req rr f (or_introl eq_refl) He) as Hf. rewrite (send_default f w Hw). cbn [accepted].
  destruct f; [congruence|]. cbn [wrote app]. f_equal. apply IH'. repeat split.
Qed.
