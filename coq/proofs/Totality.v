(* Totality.v -- no decoder, client call or server loop ever panics, for ANY input, and the server loop
   terminates within a fuel bound linear in the input (property C03). *)
From Coq Require Import Lia.
From TM Require Import Base Frame Pdu RtuCodec TcpCodec Framed Client Server PduDecode FramedProofs FramedMore Codecs
  TcpProofs RtuProofs LenTables ClientProofs ServerProofs TypedProofs EndToEnd.

Definition dec_total {I} (dec : list N -> list N * dres I) : Prop :=
  forall buf b r, dec buf = (b, r) ->
    r <> DPanic /\ (length b <= length buf)%nat /\ (forall i, r = DSome i -> (length b < length buf)%nat).

Lemma rtu_frame_dec_total tbl : tbl [] = Val None -> (forall b, tbl b <> Panic) -> dec_total (rtu_frame_dec tbl).
Proof.
  intros Hn Hp buf b r H. destruct (rtu_frame_dec_loop _ _ _ _ H) as [dr Hl]. clear H. revert Hl.
  apply (decode_loop_ind tbl Hn Hp (fun _ buf _ '(b, _, r) => r <> DPanic /\ (length b <= length buf)%nat /\
           (forall i, r = DSome i -> (length b < length buf)%nat))).
  1, 2: intros; split; [discriminate|]; split; [lia|discriminate].
  - intros. cbn [length]. rewrite app_length. cbn [length]. split; [discriminate|]. split; lia.
  - intros f x buf0 dr0 [[b0 dr1] r0] (H1 & H2 & H3). cbn [length]. split; [exact H1|]. split; [lia|]. intros i Hi. specialize (H3 i Hi). lia.
Qed.

Lemma adu_decode_total : dec_total adu_decode.
Proof.
  intros buf b r H.
  destruct buf as [|t1 [|t2 [|p1 [|p2 [|l1 [|l2 [|uid rest]]]]]]];
    try (injection H as <- <-; split; [discriminate|]; split; [lia|discriminate]).
  destruct (adu_decode_is t1 t2 p1 p2 l1 l2 uid rest); injection H as <- <-; (split; [discriminate|]); cbn [length].
  1-3: split; [lia|discriminate].
  rewrite skipn_length. split; [lia|intros; lia].
Qed.

Lemma frame_dec_total p tbl : tbl [] = Val None -> (forall b, tbl b <> Panic) -> dec_total (frame_dec p tbl).
Proof.
  destruct p; [intros _ _; exact adu_decode_total|]. intros Hn Hp buf b r. cbn [frame_dec].
  destruct (rtu_frame_dec tbl buf) as [b0 r0] eqn:Hd. destruct (rtu_frame_dec_total tbl Hn Hp _ _ _ Hd) as (H1 & H2 & H3).
  destruct r0 as [|[s pdu]|k|]; intros H; injection H as <- <-; (split; [congruence|]); (split; [exact H2|]); try discriminate.
  intros _ _. exact (H3 _ eq_refl).
Qed.

Lemma lift_total {H A B} (inner : list N -> list N * dres (H * A)) (pd : A -> outcome B) :
  dec_total inner -> (forall a, pd a <> Panic) -> dec_total (lift_dec inner pd).
Proof.
  intros Hi Hp buf b r E. destruct (lift_dec_inv _ _ _ _ _ E) as (r0 & Hin & Hr). destruct (Hi _ _ _ Hin) as (H1 & H2 & H3).
  destruct r0 as [|[h a]|k|]; cbn [lift_res] in Hr.
  - subst r. split; [discriminate|]. split; [exact H2|discriminate].
  - split; [|split; [exact H2|intros _ _; exact (H3 _ eq_refl)]].
    specialize (Hp a). destruct (pd a); congruence.
  - subst r. split; [discriminate|]. split; [exact H2|discriminate].
  - elim H1. reflexivity.
Qed.

Lemma client_dec_total p : dec_total (client_dec p).
Proof.
  intros buf. rewrite client_dec_eq. revert buf.
  exact (lift_total _ _ (frame_dec_total p _ rsp_pdu_len_nil rsp_pdu_len_no_panic) dec_rsp_pdu_no_panic).
Qed.
Lemma server_dec_total p : dec_total (server_dec p).
Proof.
  intros buf. rewrite server_dec_eq. revert buf.
  exact (lift_total _ _ (frame_dec_total p _ req_pdu_len_nil req_pdu_len_no_panic) dec_req_no_panic).
Qed.

(* the termination measure of the framed read half *)
Definition mu (r : rstate) (q : list revt) : nat := (length (rbuf r) + rev_bytes q + length q)%nat.

Section Read.
  Context {I : Type}.
  Variable dec : list N -> list N * dres I.
  Hypothesis Hdec : dec_total dec.

  (* [a] is the measure after, [b] before *)
  Definition progress (r : nres I) (a b : nat) : Prop :=
    r <> NPanic /\ (a <= b)%nat /\ (forall i, r = NItem i -> (a < b)%nat).

  Lemma progress_weaken r a b c : progress r a b -> (b <= c)%nat -> progress r a c.
  Proof using. intros (H1 & H2 & H3) Hb. split; [exact H1|]. split; [lia|]. intros i Hi. specialize (H3 i Hi). lia. Qed.

  Lemma attempt_total st evs :
    match attempt dec st with
    | inl (r, st') => progress r (mu st' evs) (mu st evs)
    | inr st' => (mu st' evs <= mu st evs)%nat
    end.
  Proof.
    unfold attempt, decode_eof, mu. destruct (rreadable st); [|lia].
    destruct (dec (rbuf st)) as [b0 r0] eqn:Hd. destruct (Hdec _ _ _ Hd) as (H1 & H2 & H3).
    destruct (reof st), r0 as [|i|k|]; [destruct b0|..]; try (elim H1; reflexivity); cbn [rbuf]; try lia;
      (split; [discriminate|]); (split; [lia|]); intros j [=].
    all: specialize (H3 _ eq_refl); lia.
  Qed.

  (* the conclusion is [progress r (mu st' evs') (mu st evs)], written out *)
  Lemma next_total : forall evs st bg r st' evs' bg',
    next dec st evs bg = (r, st', evs', bg') ->
    r <> NPanic /\ (mu st' evs' <= mu st evs)%nat /\ (forall i, r = NItem i -> (mu st' evs' < mu st evs)%nat).
  Proof using Hdec.
    intros evs st bg r st' evs' bg'.
    apply (next_ind dec (fun st evs _ '(r, st', evs', _) => progress r (mu st' evs') (mu st evs)));
      (* the returns that hand up no item (latch, wait, abandon, transport error) take at most an event off the script *)
      try (intros; unfold mu; cbn [rbuf rev_bytes length]; split; [discriminate|]; split; [lia|discriminate]).
    - (* Pret *) intros st0 evs0 _ r0 st1 _ Ha. pose proof (attempt_total st0 evs0) as G. rewrite Ha in G. exact G.
    - (* Pskip *) intros st0 st1 evs0 _ [[[r0 s0] e0] g0] _ _ Ha IH. pose proof (attempt_total st0 evs0) as G. rewrite Ha in G.
      exact (progress_weaken _ _ _ _ IH G).
    - (* Ppend *) intros st0 evs0 _ _ [[[r0 s0] e0] g0] _ _ _ IH. apply (progress_weaken _ _ _ _ IH). unfold mu. cbn [rev_bytes length]. lia.
    - (* Pend *) intros st0 e evs0 _ _ _ _ _. unfold mu. split; [discriminate|]. split; [destruct e; cbn [rev_bytes length]; lia|discriminate].
    - (* Peof *) intros st0 e evs0 _ [[[r0 s0] e0] g0] _ _ _ _ IH. apply (progress_weaken _ _ _ _ IH).
      unfold mu. destruct e; cbn [rbuf rev_bytes length]; lia.
    - (* Pdata *) intros st0 c evs0 _ [[[r0 s0] e0] g0] _ _ _ IH. apply (progress_weaken _ _ _ _ IH).
      unfold mu. cbn [rbuf rev_bytes length]. rewrite !app_length. lia.
  Qed.
End Read.

Theorem call_no_panic p m st req bg : fst (call p m st req bg) <> CRPanic.
Proof.
  destruct (call_is p m st req bg) as [|sr w bg1 pn c _ Hs Hu|w bg1 nr r1 q1 bg2 _ _ Hn]; try discriminate.
  - destruct pn; [apply send_panic_flag in Hs; elim (client_enc_no_panic _ _ _ _ Hs)|].
    destruct sr; try discriminate; injection Hu as <-; discriminate.
  - destruct (next_total _ (client_dec_total p) _ _ _ _ _ _ _ Hn) as (Hnp & _).
    destruct nr as [[rh rr]|k| | | |]; try discriminate; [|elim Hnp; reflexivity].
    unfold read_outcome, classify. destruct (negb _); [discriminate|]. destruct (negb _); [discriminate|]. destruct rr; discriminate.
Qed.

Lemma dec_rsp_pdu_ok pdu r : dec_rsp_pdu pdu = Val (RROk r) -> dec_rsp pdu = Val r.
Proof.
  destruct pdu as [|f t]; [discriminate|]. rewrite dec_rsp_pdu_eq.
  destruct (f <? 0x80); [destruct (dec_rsp (f :: t))|destruct (dec_exc (f :: t))]; cbn; congruence.
Qed.

Lemma client_item_decoded p buf b h r : client_dec p buf = (b, DSome (h, RROk r)) -> exists pdu, dec_rsp pdu = Val r.
Proof.
  rewrite client_dec_eq. intros H. destruct (lift_dec_item _ _ _ _ _ _ H) as (pdu & _ & Hd). eauto using dec_rsp_pdu_ok.
Qed.

Theorem typed_no_panic p m st req bg : is_typed_req req = true -> fst (typed p m st req bg) <> TRErr CRPanic.
Proof.
  intros Ht. rewrite typed_result_shape.
  pose proof (call_no_panic p m st req bg) as Hnp.
  destruct (fst (call p m st req bg)) eqn:Hc; try discriminate; try congruence.
  (* CROk r: r came out of the response decoder and carries the request's function code *)
  assert (Hs : is_success (fst (call p m st req bg)) = true) by (rewrite Hc; reflexivity).
  destruct (call_success_only_if p m st req bg Hs) as (rr & Hr & Hfc & Hres).
  rewrite Hc in Hres. destruct rr as [r0|e]; [|discriminate]. injection Hres as ->.
  destruct (call_is p m st req bg) as [| |w bg1 [i|k| | | |] r1 q1 bg2 _ _ Hn]; try discriminate. injection Hr as ->.
  destruct (next_item_from_dec (client_dec p) _ _ _ _ _ _ _ Hn) as (buf & b' & Hd).
  destruct (client_item_decoded p buf b' _ r0 Hd) as (pdu & Hp).
  eapply typed_post_no_panic; eauto.
Qed.

Lemma in_block e s req a t : In e (TCall s req :: wrote a ++ t) -> e = TCall s req \/ e = TWrote a \/ In e t.
Proof.
  intros [H|H]; [auto|]. apply in_app_or in H. destruct H as [H|H]; [|auto].
  destruct a; [destruct H|destruct H as [H|[]]; auto].
Qed.

Lemma server_item_fc p buf b h req : server_dec p buf = (b, DSome (h, req)) -> fc_value (req_fc req) < 0x80.
Proof.
  rewrite server_dec_eq. intros H. destruct (lift_dec_item _ _ _ _ _ _ H) as (pdu & _ & Hq). exact (dec_req_fc_below _ _ Hq).
Qed.

Theorem process_total p m : forall fuel r w q svc,
  ~ In TPanic (process fuel p m r w q svc) /\ ((mu r q < fuel)%nat -> ~ In TOutOfFuel (process fuel p m r w q svc)).
Proof.
  pose (P := fun fuel r q (t : list tev) => ~ In TPanic t /\ ((mu r q < fuel)%nat -> ~ In TOutOfFuel t)).
  assert (Hend : forall fuel r q e, e <> TPanic -> e <> TOutOfFuel -> P fuel r q [e]).
  { intros fuel r q e H1 H2. split; [|intros _]; intros [H|[]]; congruence. }
  (* a served request in front: the item took something off the measure, so one unit of fuel less will do *)
  assert (Hitem : forall fuel r q h req r1 q1 bg a t, next (server_dec p) r q None = (NItem (h, req), r1, q1, bg) ->
            P fuel r1 q1 t -> P (S fuel) r q (TCall (snd h) req :: wrote a ++ t)).
  { intros fuel r q h req r1 q1 bg a t Hn [I1 I2].
    destruct (next_total _ (server_dec_total p) _ _ _ _ _ _ _ Hn) as (_ & _ & Hlt). specialize (Hlt _ eq_refl).
    split; [|intros Hm]; intros H; apply in_block in H; destruct H as [H|[H|H]]; try discriminate; [exact (I1 H)|].
    apply I2; [lia|exact H]. }
  apply (process_ind p m (fun fuel r _ q _ t => P fuel r q t)).
  - split; [intros [H|[]]; discriminate|]. intros H. elim (Nat.nlt_0_r _ H).
  - intros fuel r w q svc nr r1 q1 bg Hn Hni.
    destruct (next_total _ (server_dec_total p) _ _ _ _ _ _ _ Hn) as (Hnp & _).
    apply Hend; destruct nr; try discriminate; congruence.
  - intros fuel r w q svc h req r1 q1 bg t Hn _ IH. exact (Hitem _ _ _ _ _ _ _ _ [] _ Hn IH).
  - intros fuel r w q svc h req r1 q1 bg rr sr w1 bg1 pn Hn Hr Hs.
    destruct (next_item_from_dec _ _ _ _ _ _ _ _ Hn) as (buf & b' & Hd).
    (* the encoder cannot panic: every assertion sits behind the size check, and the code is below 0x80 *)
    assert (pn = false) as ->.
    { destruct pn; [|reflexivity]. apply send_panic_flag in Hs.
      exfalso. eapply (server_enc_no_panic p m h req); eauto using server_item_fc. }
    destruct sr; cbn [send_end]; try (apply (Hitem _ _ _ _ _ _ _ _ _ _ Hn), Hend; discriminate).
    intros t IH. exact (Hitem _ _ _ _ _ _ _ _ _ _ Hn IH).
Qed.

(* with the fuel the runner uses, the loop always terminates by itself *)
Theorem serve_conn_terminates p m q wq fq svc :
  ~ In TOutOfFuel (serve_conn p m q wq fq svc) /\ ~ In TPanic (serve_conn p m q wq fq svc).
Proof.
  unfold serve_conn. destruct (process_total p m (process_fuel q) rstate0 (mkW [] wq fq []) q svc) as [H1 H2].
  split; [apply H2; unfold mu, process_fuel; cbn; lia|exact H1].
Qed.
