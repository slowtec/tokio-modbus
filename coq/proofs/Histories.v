(* A history is a list of operations (calls with the transport scripts they bring, unit-id changes, disconnects)
   run from some client state.  What every history keeps or counts (C10, C15, C12, C16); then one call on a
   transport that stays open, by the fragmentation theorem for the client decoder. *)
From Coq Require Import Lia.
From TM Require Import Base Frame Pdu RtuCodec Framed Client BaseLemmas FramedProofs Codecs TcpProofs StreamProofs
  ClientProofs.

Inductive op :=
| OCall (typed_ : bool) (req : request) (bg : budget) (w : list wev) (f : list fev) (r : list revt)
| OSlave (s : N)
| ODisc (sd : list sdev).

(* the scripts of an operation are appended to what the transport still has in store *)
Definition push (st : cstate) (w : list wev) (f : list fev) (r : list revt) : cstate :=
  let wi := wio_ st in
  mkC (framed st) (rst st) (mkW (wbuf wi) (wq wi ++ w) (fq wi ++ f) (accepted wi)) (rq st ++ r) (sq st)
      (next_tid st) (unit_id st) (shutdowns st).
Definition push_sd (st : cstate) (sd : list sdev) : cstate :=
  mkC (framed st) (rst st) (wio_ st) (rq st) (sq st ++ sd) (next_tid st) (unit_id st) (shutdowns st).

Definition run_op (p : proto) (m : mode) (st : cstate) (o : op) : cstate :=
  match o with
  | OCall t req bg w f r => if t then snd (typed p m (push st w f r) req bg) else snd (call p m (push st w f r) req bg)
  | OSlave s => set_slave st s
  | ODisc sd => snd (disconnect (push_sd st sd))
  end.
Definition run_ops (p : proto) (m : mode) (st : cstate) (ops : list op) : cstate := fold_left (run_op p m) ops st.

Definition is_call (o : op) : bool := match o with OCall _ _ _ _ _ _ => true | _ => false end.
Definition ncalls (ops : list op) : N := len (filter is_call ops).
Lemma ncalls_app a b : ncalls (a ++ b) = ncalls a + ncalls b.
Proof. unfold ncalls. rewrite filter_app, len_app. reflexivity. Qed.

Lemma typed_state p m st req bg : snd (typed p m st req bg) = snd (call p m st req bg).
Proof. unfold typed. destruct (call p m st req bg) as [[] st']; reflexivity. Qed.

Lemma run_op_call p m st t req bg w f r : run_op p m st (OCall t req bg w f r) = snd (call p m (push st w f r) req bg).
Proof. destruct t; [apply typed_state|reflexivity]. Qed.

Lemma run_ops_inv p m (P : cstate -> Prop) (Q : op -> Prop) :
  (forall st o, Q o -> P st -> P (run_op p m st o)) ->
  forall ops st, Forall Q ops -> P st -> P (run_ops p m st ops).
Proof.
  induction ops as [|o ops IH]; intros st Hq Hp; [exact Hp|].
  inversion Hq. apply IH; auto.
Qed.

Lemma run_ops_preserves p m (P : cstate -> Prop) :
  (forall st o, P st -> P (run_op p m st o)) -> forall ops st, P st -> P (run_ops p m st ops).
Proof. intros Hstep ops st. apply (run_ops_inv p m P (fun _ => True)); [auto|induction ops; auto]. Qed.

Lemma next_tid_run_op m st o : next_tid st < 65536 ->
  next_tid (run_op TCP m st o) = (next_tid st + (if is_call o then 1 else 0)) mod 65536.
Proof.
  intros Hlt. destruct o as [t req bg w f r|s|sd]; cbn [is_call].
  - rewrite run_op_call, call_tid_advances. reflexivity.
  - cbn. lia.
  - cbn [run_op]. destruct (disconnect_state (push_sd st sd)) as (f & q & n & ->). cbn. lia.
Qed.

Theorem next_tid_run_ops m : forall ops st, next_tid st < 65536 ->
  next_tid (run_ops TCP m st ops) = (next_tid st + ncalls ops) mod 65536.
Proof.
  induction ops as [|o ops IH]; intros st Hlt.
  - cbn. lia.
  - cbn [run_ops fold_left]. fold (run_ops TCP m (run_op TCP m st o) ops).
    rewrite IH by (rewrite next_tid_run_op by exact Hlt; lia).
    rewrite next_tid_run_op by exact Hlt. unfold ncalls. cbn [filter].
    destruct (is_call o); [rewrite len_cons|]; lia.
Qed.

Theorem tid_of_call m ops slave :
  fst (req_hdr TCP (run_ops TCP m (client_new TCP slave) ops)) = ncalls ops mod 65536.
Proof. unfold req_hdr. rewrite next_tid_run_ops by (cbn; lia). reflexivity. Qed.

(* the shutdown happens exactly once, in the first disconnect (C15) *)
Definition conn_inv (st : cstate) (s0 : N) : Prop :=
  (framed st = true /\ shutdowns st = s0) \/ (framed st = false /\ shutdowns st = s0 + 1).

Lemma conn_inv_op p m st o s0 : conn_inv st s0 -> conn_inv (run_op p m st o) s0.
Proof.
  intros Hi. destruct o as [t req bg w f r|s|sd].
  - rewrite run_op_call. destruct (call_keeps_connection p m (push st w f r) req bg) as [Hf Hs]. unfold conn_inv. rewrite Hf, Hs. exact Hi.
  - exact Hi.
  - cbn [run_op]. destruct Hi as [[Hf Hs]|[Hf Hs]].
    + destruct (disconnect_first (push_sd st sd) Hf) as (_ & Hf' & Hs'). right. rewrite Hs'. cbn [push_sd shutdowns]. rewrite Hs. auto.
    + rewrite (disconnect_again (push_sd st sd) Hf). right. auto.
Qed.

Lemma push_clean st w f r : clean st -> clean (push st w f r).
Proof. auto. Qed.
Theorem history_clean p m : forall ops st, clean st -> clean (run_ops p m st ops).
Proof.
  apply (run_ops_preserves p m clean).
  intros st' [t req bg w f r|s|sd] Hc; [rewrite run_op_call; apply call_preserves_clean; exact Hc|exact Hc|].
  cbn [run_op]. destruct (disconnect_state (push_sd st' sd)) as (f & q & n & ->). exact Hc.
Qed.

(* what reached the transport plus what is still buffered is a concatenation of whole request frames (C16) *)
Definition whole_frames (p : proto) (bytes : list N) : Prop :=
  exists frs, bytes = concat frs /\ Forall (fun fr => exists m h req, client_enc p m h req = Val fr) frs.

Definition sent_and_buffered (st : cstate) : list N := accepted (wio_ st) ++ wbuf (wio_ st).

Lemma whole_frames_app p a fr : whole_frames p a -> (fr = [] \/ exists m h req, client_enc p m h req = Val fr) -> whole_frames p (a ++ fr).
Proof.
  intros (frs & -> & Hf) [->|He].
  - exists frs. rewrite app_nil_r. auto.
  - exists (frs ++ [fr]). rewrite concat_app. cbn. rewrite app_nil_r. split; [reflexivity|].
    apply Forall_app. split; [exact Hf|]. constructor; [exact He|constructor].
Qed.

Theorem history_whole_frames p m : forall ops st, whole_frames p (sent_and_buffered st) ->
  whole_frames p (sent_and_buffered (run_ops p m st ops)).
Proof.
  apply (run_ops_preserves p m (fun st => whole_frames p (sent_and_buffered st))).
  intros st' [t req bg w f r|s|sd] Hw; [|exact Hw|].
  - rewrite run_op_call. destruct (call_conserves p m (push st' w f r) req bg) as (fr & Hfr & Hc).
    unfold sent_and_buffered. rewrite Hc. cbn [push wio_ accepted wbuf]. rewrite app_assoc. apply whole_frames_app; [exact Hw|].
    destruct Hfr as [->|He]; [left; reflexivity|right; eauto].
  - cbn [run_op]. destruct (disconnect_state (push_sd st' sd)) as (f & q & n & ->). exact Hw.
Qed.

(* the client decoder meets H1 and H2 of the fragmentation theorem *)
Definition client_valid (p : proto) : list N -> hdr * rsp_result -> Prop :=
  match p with TCP => valid_rsp_frame | RTU => valid_rtu_rsp end.
Lemma client_valid_side p : client_valid p = side_valid p rsp_pdu_len dec_rsp_pdu.
Proof. destruct p; reflexivity. Qed.
Lemma client_H1 p f i x : client_valid p f i -> client_dec p (f ++ x) = (x, DSome i).
Proof. rewrite client_valid_side, client_dec_eq. apply side_H1. Qed.
Lemma client_H2 p f i q : client_valid p f i -> proper_prefix q f -> client_dec p q = (q, DNone).
Proof. rewrite client_valid_side, client_dec_eq. apply side_H2. Qed.
Lemma client_valid_nonempty p f i : client_valid p f i -> f <> [].
Proof. rewrite client_valid_side. apply side_valid_nonempty. Qed.
Lemma client_dec_nil p : client_dec p [] = ([], DNone).
Proof. destruct p; reflexivity. Qed.

(* once the request is written and the matching reply arrives (any chunking, any surplus), the call consumes
   exactly that reply (C12) *)
Theorem exchange_consumes_reply p m st req bg f i cs rest w bg1 :
  framed st = true -> clean st -> reof (rst st) = false ->
  send (client_enc p m (req_hdr p st) req) (wio_ st) bg = (SOk, w, bg1, false) ->
  rq st = datas cs -> Forall nonempty cs -> concat cs = f ++ rest -> client_valid p f i ->
  call_reply p m st req bg = Some i.
Proof.
  intros Hf Hc He Hs Hq Hne Hcat Hv. unfold call_reply. rewrite Hf. cbn [negb]. rewrite Hs.
  unfold cleared. unfold clean in Hc. rewrite Hc, He, Hq.
  destruct (next_item (client_dec p) (client_valid p) (client_H1 p) (client_H2 p) cs [] (rreadable (rst st)) f i rest bg1 Hv Hne Hcat)
    as (b' & cs' & Hn & _).
  { intros _. exists f. split; [eapply client_valid_nonempty; eauto|reflexivity]. }
  rewrite Hn. reflexivity.
Qed.

Theorem exchange_returns_reply p m st req bg f rr cs rest w bg1 :
  framed st = true -> clean st -> reof (rst st) = false ->
  send (client_enc p m (req_hdr p st) req) (wio_ st) bg = (SOk, w, bg1, false) ->
  rq st = datas cs -> Forall nonempty cs -> concat cs = f ++ rest -> client_valid p f (req_hdr p st, rr) ->
  fc_value (rr_fc rr) = fc_value (req_fc req) ->
  fst (call p m st req bg) = match rr with RROk r => CROk r | RRExc e => CRExc (exr_exception e) end.
Proof.
  intros Hf Hc He Hs Hq Hne Hcat Hv Hfc. apply call_returns_answer; [|exact Hfc].
  eapply exchange_consumes_reply; eauto.
Qed.

(* end of stream or a read error while the bytes received are undecided (as every proper prefix of a reply is) is
   a transport error (C13) *)
Theorem fault_while_undecided p m st req bg cs tl w bg1 (e : revt) :
  framed st = true -> clean st -> reof (rst st) = false ->
  send (client_enc p m (req_hdr p st) req) (wio_ st) bg = (SOk, w, bg1, false) ->
  Forall nonempty cs -> undecided (client_dec p) (concat cs) ->
  rq st = datas cs ++ e :: tl -> (e = REof \/ exists k, e = RErr k) ->
  exists k, fst (call p m st req bg) = CRTransport k.
Proof.
  intros Hf Hc He Hs Hne Hu Hq Hev. rewrite call_eq, Hf, Hs. cbn [negb unsent]. unfold cleared.
  unfold clean in Hc. rewrite Hc, He, Hq.
  destruct Hev as [->|[k ->]].
  - destruct (next_undecided_eof (client_dec p) cs [] (rreadable (rst st)) tl bg1 Hne Hu) as (st' & ->).
    cbn [app]. destruct (concat cs); eexists; reflexivity.
  - rewrite (next_undecided_err (client_dec p) cs [] _ k tl bg1 Hne Hu). eexists. reflexivity.
Qed.
