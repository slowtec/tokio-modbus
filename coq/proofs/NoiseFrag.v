(* NoiseFrag.v -- resynchronisation after line noise under EVERY fragmentation (C11, second sentence): a valid frame
   preceded by noise that cannot be mistaken for the start of a frame is delivered, exactly the noise discarded and
   the bytes after the frame left in place, for up to 18 noise bytes under every chunking, and for ANY amount of
   noise when no read chunk is longer than 18 bytes.  (One decoder call drops at most 19 bytes; a read can add to
   one byte left over from the previous read.)  Generic over a decoder with N1-N3, then at the two RTU decoders. *)
From Coq Require Import Lia.
From TM Require Import Base Frame Pdu RtuCodec Framed Client FramedProofs Codecs RtuProofs LenTables StreamProofs.

Section NoiseFrag.
  Context {I : Type}.
  Variable dec : list N -> list N * dres I.
  Variable nz : N -> bool.                       (* noise-valued byte; [is_noise] for both RTU decoders *)
  Variable valid : list N -> I -> Prop.          (* a frame whose first byte is noise-valued too *)
  Hypothesis H1 : forall f i x, valid f i -> dec (f ++ x) = (x, DSome i).
  Hypothesis H2 : forall f i p, valid f i -> proper_prefix p f -> dec p = (p, DNone).
  Hypothesis Hlen2 : forall f i, valid f i -> (2 <= length f)%nat.
  Hypothesis N1 : forall ms m, forallb nz (ms ++ [m]) = true -> (length ms <= 19)%nat -> dec (ms ++ [m]) = ([m], DNone).
  Hypothesis N2 : forall ms f i q, valid f i -> forallb nz ms = true -> (length ms <= 19)%nat -> q <> [] -> proper_prefix q f ->
    dec (ms ++ q) = (q, DNone).
  Hypothesis N3 : forall ms f i x, valid f i -> forallb nz ms = true -> (length ms <= 19)%nat -> dec (ms ++ f ++ x) = (x, DSome i).

  Lemma split_last (l : list N) : l <> [] -> exists ms m, l = ms ++ [m].
  Proof. intros H. destruct (exists_last H) as [ms [m ->]]. eauto. Qed.

  Lemma forallb_app_l (a b : list N) : forallb nz (a ++ b) = true -> forallb nz a = true.
  Proof. rewrite forallb_app. intros H. apply andb_prop in H. tauto. Qed.
  Lemma forallb_app_r (a b : list N) : forallb nz (a ++ b) = true -> forallb nz b = true.
  Proof. rewrite forallb_app. intros H. apply andb_prop in H. tauto. Qed.

  Definition short_chunks (cs : list (list N)) : Prop := Forall (fun c : list N => (length c <= 18)%nat) cs.

  (* [b]: what the decoder has kept of the noise read so far (nothing, or its last byte); [ns]: the noise still to come.
     A read that stays inside the noise leaves its last byte (N1); the read that reaches the frame leaves a
     fragment of it (N2), from where [next_item] goes on, or delivers it (N3). *)
  Lemma resync : forall cs b ns f i x bg,
      valid f i -> forallb nz (b ++ ns) = true -> Forall nonempty cs -> concat cs = ns ++ f ++ x ->
      (length b <= 1)%nat -> ((length (b ++ ns) <= 18)%nat \/ short_chunks cs) ->
      exists b' cs', next dec (mkR b false false false) (datas cs) bg = (NItem i, mkR b' false true false, datas cs', bg)
                     /\ b' ++ concat cs' = x /\ Forall nonempty cs'.
  Proof.
    induction cs as [|c cs IH]; intros b ns f i x bg Hv Hnz Hne Heq Hb Hshort.
    - exfalso. pose proof (Hlen2 f i Hv) as Hl. apply (f_equal (@length N)) in Heq. rewrite !app_length in Heq. cbn in Heq. lia.
    - inversion Hne as [|? ? Hc Hne']; subst. cbn [datas map concat] in *. rewrite (next_read dec b c _ bg Hc).
      assert (Hshort' : short_chunks (c :: cs) -> (length c <= 18)%nat /\ short_chunks cs) by (intros Hs; inversion Hs; auto).
      destruct (app_split ns (f ++ x) c (concat cs) (eq_sym Heq)) as [[y ->]|(y & Hy & ->)].
      + (* this read stays inside the noise *)
        rewrite <- app_assoc in Heq. apply app_inv_head in Heq.
        destruct (split_last (b ++ c)) as (ms & m & HB); [destruct b; [exact Hc|discriminate]|].
        rewrite app_assoc, HB, <- app_assoc in Hnz, Hshort.
        rewrite (next_after_none dec (b ++ c) [m] _ bg).
        * apply (IH [m] y f i x bg Hv (forallb_app_r _ _ Hnz) Hne' Heq (le_n 1)).
          destruct Hshort as [Hs|Hs]; [left; rewrite app_length in Hs; lia|right; apply Hshort', Hs].
        * rewrite HB. apply N1; [rewrite app_assoc in Hnz; exact (forallb_app_l _ _ Hnz)|].
          apply (f_equal (@length N)) in HB. rewrite !app_length in *. cbn [length] in *.
          destruct Hshort as [Hs|Hs]; [|apply Hshort' in Hs]; lia.
      + (* this read reaches the frame and brings [y] of it and of what follows *)
        rewrite <- app_assoc in Heq. apply app_inv_head in Heq. rewrite app_assoc.
        assert (Hl : (length (b ++ ns) <= 19)%nat).
        { destruct Hshort as [Hs|Hs]; [lia|]. apply Hshort' in Hs. rewrite !app_length in *. lia. }
        destruct (app_split y (concat cs) f x Heq) as [[x1 ->]|Hp].
        * rewrite <- app_assoc in Heq. apply app_inv_head in Heq. exists x1, cs. split; [|auto].
          exact (next_decoded dec _ _ _ _ _ (N3 _ f i x1 Hv Hnz Hl)).
        * rewrite (next_after_none dec _ y _ bg (N2 _ f i y Hv Hnz Hl Hy Hp)).
          apply (next_item dec valid H1 H2 cs y false f i x bg Hv Hne' Heq). intros _. exact Hp.
  Qed.

  Theorem noise_then_frame_any_chunking : forall cs b ns f i x bg,
      valid f i -> forallb nz ns = true -> Forall nonempty cs ->
      b ++ concat cs = ns ++ f ++ x ->
      (length b <= 1)%nat -> (b = [] \/ exists ns', ns = b ++ ns') ->
      ((length ns <= 18)%nat \/ short_chunks cs) ->
      exists b' cs', next dec (mkR b false false false) (datas cs) bg = (NItem i, mkR b' false true false, datas cs', bg)
                     /\ b' ++ concat cs' = x /\ Forall nonempty cs'.
  Proof.
    intros cs b ns f i x bg Hv Hnz Hne Heq Hb [->|[ns' ->]] Hs.
    - apply (resync cs [] ns f i x bg); assumption.
    - rewrite <- app_assoc in Heq. apply app_inv_head in Heq. apply (resync cs b ns' f i x bg); assumption.
  Qed.

  (* C11 in the two forms of the file head *)
  Corollary noise_up_to_18_any_fragmentation cs ns f i x :
      valid f i -> forallb nz ns = true -> (length ns <= 18)%nat -> Forall nonempty cs -> concat cs = ns ++ f ++ x ->
      exists b' cs', next dec rstate0 (datas cs) None = (NItem i, mkR b' false true false, datas cs', None)
                     /\ b' ++ concat cs' = x /\ Forall nonempty cs'.
  Proof.
    intros Hv Hnz Hl Hne Heq. apply (noise_then_frame_any_chunking cs [] ns f i x None Hv Hnz Hne); auto.
  Qed.

  Corollary any_noise_in_short_reads cs ns f i x :
      valid f i -> forallb nz ns = true -> Forall nonempty cs -> short_chunks cs -> concat cs = ns ++ f ++ x ->
      exists b' cs', next dec rstate0 (datas cs) None = (NItem i, mkR b' false true false, datas cs', None)
                     /\ b' ++ concat cs' = x /\ Forall nonempty cs'.
  Proof.
    intros Hv Hnz Hne Hs Heq. apply (noise_then_frame_any_chunking cs [] ns f i x None Hv Hnz Hne); auto.
  Qed.
End NoiseFrag.

(* N1 and N2 for the resynchronising loop (N3 is [RtuProofs.noise_then_frame]) *)
Section LoopNoise.
  Variable pdu_len : list N -> outcome (option N).
  Hypothesis pdu_len_short : forall y, pdu_len [y] = Val None.
  Variable noise : N -> bool.
  Hypothesis noise_invalid : forall a b tl, noise b = true -> exists k, pdu_len (a :: b :: tl) = Fail k.

  (* [drop_noise], also for no noise at all *)
  Lemma drop_all_noise ms y tl fuel dr : forallb noise (ms ++ [y]) = true ->
      decode_loop pdu_len (length ms + fuel) (ms ++ y :: tl) dr = decode_loop pdu_len fuel (y :: tl) (dr ++ ms).
  Proof.
    destruct ms as [|a ms]; intros Hn; [rewrite app_nil_r; reflexivity|].
    cbn [app forallb] in Hn. apply andb_prop in Hn.
    exact (drop_noise pdu_len noise noise_invalid ms a y tl fuel dr (proj2 Hn)).
  Qed.

  Lemma loop_keep_last : forall ms m fuel dr, forallb noise (ms ++ [m]) = true ->
      decode_loop pdu_len (length ms + S fuel) (ms ++ [m]) dr = ([m], dr ++ ms, DNone).
  Proof. intros ms m fuel dr Hn. rewrite (drop_all_noise ms m [] _ dr Hn). apply loop_waits. left. apply pdu_len_short. Qed.

  Lemma loop_noise_then_prefix : forall ms s p q fuel dr,
      forallb noise (ms ++ [s]) = true -> carried pdu_len s p -> q <> [] -> proper_prefix q (rtu_frame s p) ->
      decode_loop pdu_len (length ms + S fuel) (ms ++ q) dr = (q, dr ++ ms, DNone).
  Proof.
    intros ms s p q fuel dr Hn Hc Hq Hp.
    (* [q] begins with the frame's first byte *)
    destruct q as [|s' q']; [congruence|]. assert (s' = s) as -> by (destruct Hp as (y & _ & [= -> _]); reflexivity).
    rewrite (drop_all_noise ms s q' _ dr Hn). exact (H2_loop pdu_len s p (s :: q') fuel _ Hc Hp).
  Qed.
End LoopNoise.

Lemma len_ge2_rtu s p : (2 <= length (rtu_frame s p))%nat.
Proof. unfold rtu_frame. cbn [length]. rewrite app_length, crc2_length. lia. Qed.

(* either side of an RTU link *)
Section Side.
  Context {A : Type}.
  Variable tbl : list N -> outcome (option N).
  Variable pd : list N -> outcome A.
  Variable dec : list N -> list N * dres (hdr * A).
  Hypothesis dec_eq : forall buf, dec buf = lift_dec (frame_dec RTU tbl) pd buf.
  Hypothesis tbl_no_panic : forall b, tbl b <> Panic.
  Hypothesis tbl_short : forall y, tbl [y] = Val None.
  Hypothesis noise_invalid : forall a b tl, is_noise b = true -> exists k, tbl (a :: b :: tl) = Fail k.

  Definition noisy (f : list N) (i : hdr * A) : Prop := rtu_valid tbl pd f i /\ is_noise (snd (fst i)) = true.

  Lemma noisy_slave ms f i : noisy f i -> forallb is_noise ms = true ->
    exists s pdu, f = rtu_frame s pdu /\ carried tbl s pdu /\ pd pdu = Val (snd i) /\ fst i = (0, s) /\ forallb is_noise (ms ++ [s]) = true.
  Proof.
    intros [(s & pdu & -> & Hc & Hd & Hi) Hs] Hn. exists s, pdu. repeat split; auto.
    rewrite forallb_app, Hn. cbn. rewrite Hi in Hs. cbn in Hs. rewrite Hs. reflexivity.
  Qed.

  Lemma side_N1 ms m : forallb is_noise (ms ++ [m]) = true -> (length ms <= 19)%nat -> dec (ms ++ [m]) = ([m], DNone).
  Proof.
    intros Hn Hl. rewrite dec_eq. apply lift_dec_none. cbn [frame_dec]. unfold rtu_frame_dec. rewrite (fuel20 _ Hl).
    rewrite (loop_keep_last tbl tbl_short is_noise noise_invalid ms m _ [] Hn). reflexivity.
  Qed.
  Lemma side_N2 ms f i q : noisy f i -> forallb is_noise ms = true -> (length ms <= 19)%nat -> q <> [] -> proper_prefix q f ->
    dec (ms ++ q) = (q, DNone).
  Proof.
    intros Hv Hn Hl Hq Hp. destruct (noisy_slave ms f i Hv Hn) as (s & pdu & -> & Hc & _ & _ & Hns).
    rewrite dec_eq. apply lift_dec_none. cbn [frame_dec]. unfold rtu_frame_dec. rewrite (fuel20 _ Hl).
    rewrite (loop_noise_then_prefix tbl is_noise noise_invalid ms s pdu q _ [] Hns Hc Hq Hp). reflexivity.
  Qed.
  Lemma side_N3 ms f i x : noisy f i -> forallb is_noise ms = true -> (length ms <= 19)%nat ->
    dec (ms ++ f ++ x) = (x, DSome i).
  Proof.
    intros Hv Hn Hl. rewrite dec_eq. destruct ms as [|a ms]; [exact (side_H1 RTU tbl pd f i x (proj1 Hv))|].
    destruct (noisy_slave (a :: ms) f i Hv Hn) as (s & pdu & -> & Hc & Hd & Hi & Hns). destruct i as [h v]. cbn in Hd, Hi. subst h.
    apply (lift_dec_some _ _ _ _ _ pdu); [|exact Hd]. cbn [frame_dec]. unfold rtu_frame_dec.
    rewrite (noise_then_frame tbl tbl_no_panic is_noise noise_invalid (a :: ms) s pdu x ltac:(discriminate) Hl Hns Hc). reflexivity.
  Qed.

  Theorem noise_any_fragmentation cs ns f i x :
      noisy f i -> forallb is_noise ns = true -> Forall nonempty cs -> concat cs = ns ++ f ++ x ->
      ((length ns <= 18)%nat \/ short_chunks cs) ->
      exists b' cs', next dec rstate0 (datas cs) None = (NItem i, mkR b' false true false, datas cs', None)
                     /\ b' ++ concat cs' = x /\ Forall nonempty cs'.
  Proof.
    intros Hv Hn Hne Heq Hs.
    apply (noise_then_frame_any_chunking dec is_noise noisy) with (b := []) (ns := ns) (f := f) (x := x); auto.
    - intros f0 i0 x0 [H0 _]. rewrite dec_eq. exact (side_H1 RTU tbl pd f0 i0 x0 H0).
    - intros f0 i0 p0 [H0 _] Hp0. rewrite dec_eq. exact (side_H2 RTU tbl pd f0 i0 p0 H0 Hp0).
    - intros f0 i0 [(s & pdu & -> & _) _]. apply len_ge2_rtu.
    - exact side_N1.
    - exact side_N2.
    - exact side_N3.
  Qed.
End Side.

(* [noisy] at the tables and PDU decoders of the two sides, written out *)
Definition noisy_rtu_req (f : list N) (i : hdr * request) : Prop := valid_rtu_req f i /\ is_noise (snd (fst i)) = true.
Definition noisy_rtu_rsp (f : list N) (i : hdr * rsp_result) : Prop := valid_rtu_rsp f i /\ is_noise (snd (fst i)) = true.

Theorem rtu_server_noise_any_fragmentation cs ns f i x :
    noisy_rtu_req f i -> forallb is_noise ns = true -> Forall nonempty cs -> concat cs = ns ++ f ++ x ->
    ((length ns <= 18)%nat \/ short_chunks cs) ->
    exists b' cs', next rtu_server_dec rstate0 (datas cs) None = (NItem i, mkR b' false true false, datas cs', None)
                   /\ b' ++ concat cs' = x /\ Forall nonempty cs'.
Proof.
  exact (noise_any_fragmentation req_pdu_len dec_req rtu_server_dec rtu_server_dec_eq
           req_pdu_len_no_panic req_pdu_len_short req_noise_invalid cs ns f i x).
Qed.

Theorem rtu_client_noise_any_fragmentation cs ns f i x :
    noisy_rtu_rsp f i -> forallb is_noise ns = true -> Forall nonempty cs -> concat cs = ns ++ f ++ x ->
    ((length ns <= 18)%nat \/ short_chunks cs) ->
    exists b' cs', next rtu_client_dec rstate0 (datas cs) None = (NItem i, mkR b' false true false, datas cs', None)
                   /\ b' ++ concat cs' = x /\ Forall nonempty cs'.
Proof.
  exact (noise_any_fragmentation rsp_pdu_len dec_rsp_pdu rtu_client_dec rtu_client_dec_eq
           rsp_pdu_len_no_panic rsp_pdu_len_short rsp_noise_invalid cs ns f i x).
Qed.
