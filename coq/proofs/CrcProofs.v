(* CrcProofs.v -- the CRC-16/MODBUS register as computed by calc_crc: GF(2)-linear and bit-serial, hence every error burst
   of up to 16 bits (so every single-bit error) is detected in frames of ANY length. *)
From Coq Require Import Lia.
From TM Require Import Base Crc BaseLemmas.

Lemma odd_lxor a b : N.odd (N.lxor a b) = xorb (N.odd a) (N.odd b).
Proof. rewrite <- !N.bit0_odd. apply N.lxor_spec. Qed.

Lemma lxor_swap a b c d : N.lxor (N.lxor a b) (N.lxor c d) = N.lxor (N.lxor a c) (N.lxor b d).
Proof.
  apply N.bits_inj. intros n. rewrite !N.lxor_spec.
  destruct (N.testbit a n), (N.testbit b n), (N.testbit c n), (N.testbit d n); reflexivity.
Qed.

Lemma step1_xor a b : step1 (N.lxor a b) = N.lxor (step1 a) (step1 b).
Proof.
  unfold step1. rewrite odd_lxor, N.shiftr_lxor.
  destruct (N.odd a), (N.odd b); cbn [xorb]; apply N.bits_inj; intros n; rewrite ?N.lxor_spec;
    destruct (N.testbit (N.shiftr a 1) n), (N.testbit (N.shiftr b 1) n), (N.testbit 40961 n); reflexivity.
Qed.
Lemma step8_xor a b : step8 (N.lxor a b) = N.lxor (step8 a) (step8 b).
Proof. unfold step8. rewrite !step1_xor. reflexivity. Qed.
Lemma byte_step_xor a b x y : byte_step (N.lxor a b) (N.lxor x y) = N.lxor (byte_step a x) (byte_step b y).
Proof. unfold byte_step. rewrite lxor_swap. apply step8_xor. Qed.

Fixpoint xor_bytes (a b : list N) : list N :=
  match a, b with x :: a', y :: b' => N.lxor x y :: xor_bytes a' b' | _, _ => [] end.

Lemma crc_fold_cons c b l : crc_fold c (b :: l) = crc_fold (byte_step c b) l.
Proof. reflexivity. Qed.

Theorem crc_fold_xor : forall d1 d2 a b, length d1 = length d2 ->
  crc_fold (N.lxor a b) (xor_bytes d1 d2) = N.lxor (crc_fold a d1) (crc_fold b d2).
Proof.
  induction d1 as [|x d1 IH]; intros d2 a b Hl; destruct d2 as [|y d2]; try discriminate; [reflexivity|].
  cbn [xor_bytes]. rewrite !crc_fold_cons, byte_step_xor. apply IH. cbn in Hl. lia.
Qed.

Lemma lxor_lt_pow2 a b n : a < 2 ^ n -> b < 2 ^ n -> N.lxor a b < 2 ^ n.
Proof.
  assert (H : forall x, x < 2 ^ n <-> N.shiftr x n = 0).
  { intros x. rewrite N.shiftr_div_pow2. symmetry. apply N.div_small_iff, N.pow_nonzero. discriminate. }
  rewrite !H, N.shiftr_lxor. intros -> ->. reflexivity.
Qed.

Lemma shiftr1_odd c : c = 2 * N.shiftr c 1 + N.b2n (N.odd c).
Proof. rewrite <- N.div2_spec. apply N.div2_odd. Qed.

Lemma step1_closed c : c < 65536 -> step1 c < 65536.
Proof.
  intros Hc. pose proof (shiftr1_odd c) as H. unfold step1. destruct (N.odd c); [|lia].
  apply (lxor_lt_pow2 _ _ 16); [lia|reflexivity].
Qed.
(* an odd c goes to 0 only if c >> 1 = 0xA001, which needs 16 bits: the top bit of the polynomial is set *)
Lemma step1_zero_iff c : c < 65536 -> step1 c = 0 <-> c = 0.
Proof.
  intros Hc. split; [|intros ->; reflexivity].
  pose proof (shiftr1_odd c) as H. unfold step1. destruct (N.odd c); cbn [N.b2n] in H; [|lia].
  intros H0. apply N.lxor_eq in H0. lia.
Qed.

Lemma step8_closed c : c < 65536 -> step8 c < 65536.
Proof. intros Hc. unfold step8. do 8 apply step1_closed. exact Hc. Qed.
Lemma step8_zero_iff c : c < 65536 -> step8 c = 0 <-> c = 0.
Proof. intros Hc. unfold step8. rewrite !step1_zero_iff by auto 10 using step1_closed. reflexivity. Qed.

Lemma byte_step_closed c b : c < 65536 -> b < 256 -> byte_step c b < 65536.
Proof. intros Hc Hb. apply step8_closed, (lxor_lt_pow2 _ _ 16); [exact Hc|lia]. Qed.
Lemma crc_fold_closed : forall d c, c < 65536 -> bytes_ok d = true -> crc_fold c d < 65536.
Proof.
  induction d as [|x d IH]; intros c Hc Hd; [exact Hc|].
  cbn [bytes_ok forallb] in Hd. apply andb_prop in Hd. destruct Hd as [Hx Hd]. apply byte_ok_lt in Hx.
  rewrite crc_fold_cons. apply IH; [apply byte_step_closed; assumption|exact Hd].
Qed.

Lemma crc_fold_app c a b : crc_fold c (a ++ b) = crc_fold (crc_fold c a) b.
Proof. unfold crc_fold. apply fold_left_app. Qed.

(* bit-serial: a step looks at bit 0 only, so bits further up may be XORed in early *)
Lemma step1_double w : step1 (2 * w) = w.
Proof. unfold step1. rewrite N.odd_mul, <- N.div2_spec. apply (N.div2_double w). Qed.
Lemma step8_shift w : step8 (256 * w) = w.
Proof. change 256 with (2 * (2 * (2 * (2 * (2 * (2 * (2 * 2))))))). unfold step8. rewrite <- !N.mul_assoc, !step1_double. reflexivity. Qed.
Lemma lxor_add b w : b < 256 -> N.lxor b (256 * w) = b + 256 * w.
Proof.
  intros Hb. symmetry. apply N.add_nocarry_lxor, N.bits_inj. intros n.
  rewrite N.land_spec, N.bits_0, N.mul_comm. change 256 with (2 ^ 8) in *.
  destruct (N.lt_ge_cases n 8) as [Hn|Hn].
  - rewrite N.mul_pow2_bits_low by exact Hn. apply andb_false_r.
  - rewrite <- (N.mod_small b (2 ^ 8)), N.mod_pow2_bits_high by assumption. reflexivity.
Qed.

(* the bytes after [b], as the number [w], may enter together with [b], eight places up *)
Lemma byte_step_serial c b w : b < 256 -> N.lxor (byte_step c b) w = byte_step (N.lxor c (b + 256 * w)) 0.
Proof.
  intros Hb. unfold byte_step. rewrite N.lxor_0_r, <- lxor_add, <- N.lxor_assoc by exact Hb.
  rewrite (step8_xor _ (256 * w)), step8_shift. reflexivity.
Qed.

Fixpoint le_val (l : list N) : N := match l with [] => 0 | b :: l => b + 256 * le_val l end.

(* so running over [l] is XORing all of [l] in at once and then running over zeros *)
Lemma crc_fold_serial : forall l c, bytes_ok l = true ->
  crc_fold c l = crc_fold (N.lxor c (le_val l)) (repeat 0 (length l)).
Proof.
  induction l as [|b l IH]; intros c Hl; [symmetry; apply N.lxor_0_r|].
  cbn [bytes_ok forallb] in Hl. apply andb_prop in Hl. destruct Hl as [Hb Hl]. apply byte_ok_lt in Hb.
  cbn [le_val length repeat]. rewrite !crc_fold_cons, IH, byte_step_serial by assumption. reflexivity.
Qed.

Theorem corrupted_residue F E : length F = length E -> crc_fold 0xFFFF F = 0 ->
  crc_fold 0xFFFF (xor_bytes F E) = crc_fold 0 E.
Proof.
  intros Hl Hv. pose proof (crc_fold_xor F E 0xFFFF 0 Hl) as H. rewrite N.lxor_0_r in H. rewrite H, Hv. apply N.lxor_0_l.
Qed.

(* bursts of up to 16 bits (bit order as transmitted: least significant bit of each byte first):
   an error pattern [p] (16 bits, non-zero) starting at bit [s] of some byte spans at most 3 bytes *)
Definition burst_bytes (p s : N) : list N :=
  let v := N.shiftl p s in [v mod 256; (v / 256) mod 256; (v / 65536) mod 256].

(* A non-zero pattern of at most 16 bits with [k] zeros still to be shifted out below it (what is above bit 15 has
   not reached the register yet).  A step shifts out a zero or, with the pattern all in the register, sends it to
   another non-zero pattern: no number of steps gives 0. *)
Definition live (c : N) : Prop := exists p k, p <> 0 /\ p < 65536 /\ c = p * 2 ^ k.

Lemma live_nonzero c : live c -> c <> 0.
Proof. intros (p & k & Hp0 & _ & ->). apply N.neq_mul_0. split; [exact Hp0|apply N.pow_nonzero; discriminate]. Qed.
Lemma step1_live c : live c -> live (step1 c).
Proof.
  intros (p & k & Hp0 & Hp & ->). destruct k as [|k _] using N.peano_ind.
  - exists (step1 p), 0. rewrite !N.mul_1_r, step1_zero_iff by exact Hp. auto using step1_closed.
  - exists p, k. rewrite N.pow_succ_r', N.mul_shuffle3, step1_double. auto.
Qed.
Lemma step8_live c : live c -> live (step8 c).
Proof. intros H. unfold step8. do 8 apply step1_live. exact H. Qed.

Lemma crc_fold_zeros_0 k : crc_fold 0 (repeat 0 k) = 0.
Proof. induction k as [|k IH]; [reflexivity|]. exact IH. Qed.
Lemma crc_fold_zeros_live : forall k c, live c -> live (crc_fold c (repeat 0 k)).
Proof.
  induction k as [|k IH]; intros c H; [exact H|]. cbn [repeat]. rewrite crc_fold_cons. apply IH.
  unfold byte_step. rewrite N.lxor_0_r. apply step8_live, H.
Qed.

(* an error pattern within 16 consecutive transmitted bits, anywhere in a frame of any length, changes the residue of a
   valid frame: the corrupted slice fails the CRC check *)
Theorem burst_detected F k p s m :
  crc_fold 0xFFFF F = 0 -> 1 <= p -> p < 65536 -> s < 8 ->
  length F = (k + 3 + m)%nat ->
  crc_fold 0xFFFF (xor_bytes F (repeat 0 k ++ burst_bytes p s ++ repeat 0 m)) <> 0.
Proof.
  intros Hv Hp1 Hp Hs Hl.
  rewrite corrupted_residue; [|rewrite !app_length, !repeat_length; cbn [burst_bytes length]; lia|exact Hv].
  rewrite !crc_fold_app, crc_fold_zeros_0. apply live_nonzero, crc_fold_zeros_live.
  assert (Hw : N.shiftl p s < 2 ^ 24).
  { rewrite N.shiftl_mul_pow2. apply (N.mul_lt_mono _ (2 ^ 16) _ (2 ^ 8)); [exact Hp|apply N.pow_lt_mono_r; lia]. }
  (* the three bytes are the number p * 2 ^ s *)
  rewrite crc_fold_serial, N.lxor_0_l by (unfold burst_bytes, bytes_ok, forallb, byte_ok; lia).
  apply crc_fold_zeros_live. exists p, s. rewrite <- N.shiftl_mul_pow2. unfold burst_bytes, le_val. split; [|split]; lia.
Qed.
