(* C16/C12: whatever earlier calls did (completed, failed, were abandoned at any poll, left a fragment of a reply
   in the receive buffer), the next call on a transport that stays open performs a normal exchange.  The piece
   missing beside [call_preserves_clean] and [call_keeps_connection]: a call sets the end-of-stream flag of the
   framing layer only if the transport signalled end of stream. *)
From TM Require Import Base Frame Pdu RtuCodec Framed Client FramedProofs ClientProofs Histories.

(* the events that end the stream: the same function as [ends_stream] of [next_ind] *)
Definition is_eof_event (e : revt) : bool := match e with REof | RData [] => true | _ => false end.
Definition no_eof (q : list revt) : Prop := forall e, In e q -> is_eof_event e = false.

Lemma no_eof_tail e q : no_eof (e :: q) -> no_eof q.
Proof. intros H x Hx. apply H. right. exact Hx. Qed.

Lemma attempt_reof {I} (dec : list N -> list N * dres I) st : reof st = false ->
  match attempt dec st with inl (_, st') => reof st' = false | inr st' => reof st' = false end.
Proof.
  intros He. unfold attempt. destruct (rreadable st); [|exact He]. rewrite He.
  destruct (dec (rbuf st)) as [b' [|i|k|]]; reflexivity.
Qed.

Lemma next_reof {I} (dec : list N -> list N * dres I) evs st bg r st' evs' bg' :
  next dec st evs bg = (r, st', evs', bg') -> reof st = false -> no_eof evs -> reof st' = false /\ no_eof evs'.
Proof.
  intros H. apply (next_ind dec (fun st evs _ '(_, st', evs', _) => reof st = false -> no_eof evs ->
                                   reof st' = false /\ no_eof evs')) in H; [exact H|..]; clear.
  (* the cases that return leave the flag as it is and drop at most the first event *)
  all: cbn [reof]; eauto 3 using no_eof_tail.
  - (* Pret *) intros st evs _ r st' _ Ha He. pose proof (attempt_reof dec st He) as H. rewrite Ha in H. auto.
  - (* Pskip *) intros st st1 evs _ [[[r0 s0] e0] g0] _ _ Ha IH He. pose proof (attempt_reof dec st He) as H. rewrite Ha in H. auto.
  - (* Ppend *) intros st evs _ _ [[[r0 s0] e0] g0] _ _ _ IH He Hn. exact (IH He (no_eof_tail _ _ Hn)).
  - (* Peof: an end-of-stream event is what [no_eof] excludes *)
    intros st e evs _ [[[r0 s0] e0] g0] _ _ He _ _ _ Hn. destruct (eq_true_false_abs _ He (Hn e (or_introl eq_refl))).
  - (* Pdata *) intros st c evs _ [[[r0 s0] e0] g0] _ _ _ IH _ Hn. exact (IH eq_refl (no_eof_tail _ _ Hn)).
Qed.

Theorem call_keeps_stream_open p m st req bg : reof (rst st) = false -> no_eof (rq st) ->
  reof (rst (snd (call p m st req bg))) = false /\ no_eof (rq (snd (call p m st req bg))).
Proof.
  intros He Hn.
  destruct (call_is p m st req bg) as [| |w bg1 nr r1 q1 bg2 _ _ Hx]; cbn; auto.
  destruct nr; exact (next_reof _ _ _ _ _ _ _ _ Hx He Hn).
Qed.

(* the invariant of a client on a transport that stays open *)
Definition usable (st : cstate) : Prop := framed st = true /\ clean st /\ reof (rst st) = false /\ no_eof (rq st).

Theorem call_keeps_usable p m st req bg : usable st -> usable (snd (call p m st req bg)).
Proof.
  intros (Hf & Hc & He & Hn). destruct (call_keeps_stream_open p m st req bg He Hn) as [He' Hn'].
  destruct (call_keeps_connection p m st req bg) as [Hf' _].
  repeat split; [rewrite Hf'; exact Hf|apply call_preserves_clean; exact Hc|exact He'|exact Hn'].
Qed.

Lemma no_eof_app a b : no_eof a -> no_eof b -> no_eof (a ++ b).
Proof. intros Ha Hb e Hi. apply in_app_or in Hi. destruct Hi; [apply Ha|apply Hb]; assumption. Qed.
Lemma no_eof_datas cs : Forall nonempty cs -> no_eof (datas cs).
Proof.
  intros Hf e Hi. unfold datas in Hi. apply in_map_iff in Hi. destruct Hi as (c & <- & Hc).
  rewrite Forall_forall in Hf. specialize (Hf c Hc). destruct c; [unfold nonempty in Hf; congruence|reflexivity].
Qed.

Definition op_no_eof (o : op) : Prop := match o with OCall _ _ _ _ _ r => no_eof r | OSlave _ => True | ODisc _ => False end.

Lemma push_usable st w f r : usable st -> no_eof r -> usable (push st w f r).
Proof. intros (Hf & Hc & He & Hn) Hr. repeat split; try assumption. apply no_eof_app; assumption. Qed.

Theorem history_usable p m : forall ops st, usable st -> Forall op_no_eof ops -> usable (run_ops p m st ops).
Proof.
  intros ops st Hu Ha. revert ops st Ha Hu. apply (run_ops_inv p m usable op_no_eof).
  intros st [t req bg w f r|s|sd] Ho Hu; [|exact Hu|contradiction].
  rewrite run_op_call. apply call_keeps_usable, push_usable; assumption.
Qed.

(* after any such history whose read scripts are used up, a call whose request gets written and whose matching
   reply then arrives (any chunking, any surplus) returns that reply *)
Theorem exchange_after_any_history p m ops st0 req bg f rr cs rest w bg1 ws fs :
  usable st0 -> Forall op_no_eof ops ->
  let st := push (run_ops p m st0 ops) ws fs (datas cs) in
  send (client_enc p m (req_hdr p st) req) (wio_ st) bg = (SOk, w, bg1, false) ->
  rq (run_ops p m st0 ops) = [] ->
  Forall nonempty cs -> concat cs = f ++ rest -> client_valid p f (req_hdr p st, rr) ->
  fc_value (rr_fc rr) = fc_value (req_fc req) ->
  fst (call p m st req bg) = match rr with RROk r => CROk r | RRExc e => CRExc (exr_exception e) end.
Proof.
  intros Hu Ha st Hs Hq Hne Hcat Hv Hfc.
  pose proof (history_usable p m ops st0 Hu Ha) as (Hf & Hc & He & Hn).
  apply (exchange_returns_reply p m st req bg f rr cs rest w bg1); try assumption.
  unfold st, push. cbn [rq]. rewrite Hq. reflexivity.
Qed.
