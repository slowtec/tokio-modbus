(* The typed client methods (C20). *)
From TM Require Import Base Frame Pdu Client BaseLemmas PduReencode.

(* the ten typed methods issue exactly these requests *)
Definition is_typed_req (r : request) : bool :=
  match r with ReqReportServerId | ReqCustom _ _ => false | _ => true end.

(* H : typed_post req r = a result, req and r destructed.  A reply of another kind than the request's is an error
   (discriminate); for one of its kind, Hc becomes the test [typed_post] makes: the count, or the echo *)
Ltac typed_cases H Hc :=
  cbn [typed_post] in H; unfold echo in H; try discriminate;
  try (match type of H with context [if ?c then _ else _] => destruct c eqn:Hc end; try discriminate).

(* a typed read that reports success returns exactly the requested number of items, taken in order
   from the reply *)
Theorem typed_read_exact_bits req r bs :
  typed_post req r = TRBits bs ->
  exists a q rb, (req = ReqReadCoils a q /\ r = RspReadCoils rb \/ req = ReqReadDiscreteInputs a q /\ r = RspReadDiscreteInputs rb)
                 /\ len bs = q /\ bs = firstn (N.to_nat q) rb.
Proof.
  intros H. destruct req as [a q|a q| | | | | | | | | |], r as [rb|rb| | | | | | | | | |]; typed_cases H Hc;
    injection H as <-; exists a, q, rb.
  (* the count test passed: the reply holds at least q items *)
  all: rewrite len_firstn, (N.min_l _ _ (proj1 (N.ltb_ge _ _) Hc)); auto.
Qed.

(* for every reply the decoder can produce and the call accepts (numerically the request's function
   code), post-processing returns a result: the unreachable!() arm is unreachable, no panic *)
Theorem typed_post_no_panic req r bs :
  is_typed_req req = true -> dec_rsp bs = Val r -> fc_value (rsp_fc r) = fc_value (req_fc req) ->
  typed_post req r <> TRErr CRPanic.
Proof.
  intros Ht Hd Hfc. destruct (dec_rsp_variant bs r Hd) as [Hcan _].
  destruct req; cbn [is_typed_req] in Ht; try discriminate;
    destruct r; cbn [rsp_fc req_fc fc_value] in Hfc; try discriminate;
      try (cbn [typed_post]; unfold echo; repeat match goal with |- context [if ?c then _ else _] => destruct c end; discriminate);
      (* custom responses carrying a modelled code cannot come out of the decoder *)
      try (rewrite Hfc in Hcan; discriminate Hcan).
Qed.

Theorem typed_result_shape p m st req bg :
  fst (typed p m st req bg) =
  match fst (call p m st req bg) with
  | CROk r => typed_post req r
  | CRExc e => TRExc e
  | c => TRErr c
  end.
Proof. unfold typed. destruct (call p m st req bg) as [[] st']; reflexivity. Qed.
