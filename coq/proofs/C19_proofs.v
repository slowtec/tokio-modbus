(* C19_proofs.v -- what props/C19.v is stated with (the specification's code tables, the spellings of a slave id, the checks
   swept over the 256 ids), and why slave_parse reads every spelling of a number as that number. *)
From Coq Require Import String Lia ZifyN.
From TM Require Import Base Frame Slave Text Sweep.

(* spec tables (Modbus Application Protocol V1.1b3), written independently of fc_new *)
Definition spec_fc_table : list (N * function_code) :=
  [(0x01, FcReadCoils); (0x02, FcReadDiscreteInputs); (0x03, FcReadHoldingRegisters);
   (0x04, FcReadInputRegisters); (0x05, FcWriteSingleCoil); (0x06, FcWriteSingleRegister);
   (0x07, FcReadExceptionStatus); (0x08, FcDiagnostics); (0x0B, FcGetCommEventCounter);
   (0x0C, FcGetCommEventLog); (0x0F, FcWriteMultipleCoils); (0x10, FcWriteMultipleRegisters);
   (0x11, FcReportServerId); (0x14, FcReadFileRecord); (0x15, FcWriteFileRecord);
   (0x16, FcMaskWriteRegister); (0x17, FcReadWriteMultipleRegisters); (0x18, FcReadFifoQueue);
   (0x2B, FcEncapsulatedInterfaceTransport)].
Definition spec_ex_table : list (N * exception_code) :=
  [(0x01, ExIllegalFunction); (0x02, ExIllegalDataAddress); (0x03, ExIllegalDataValue);
   (0x04, ExServerDeviceFailure); (0x05, ExAcknowledge); (0x06, ExServerDeviceBusy);
   (0x08, ExMemoryParityError); (0x0A, ExGatewayPathUnavailable); (0x0B, ExGatewayTargetDevice)].

Fixpoint lookup {A} (b : N) (t : list (N * A)) : option A :=
  match t with [] => None | (k, v) :: r => if k =? b then Some v else lookup b r end.

Definition spec_fc (b : N) : function_code :=
  match lookup b spec_fc_table with Some f => f | None => FcCustom b end.
Definition spec_ex (b : N) : exception_code :=
  match lookup b spec_ex_table with Some f => f | None => ExCustom b end.

Definition hex_lower_digit (d : N) : N := if d <? 10 then 48 + d else 87 + d.
(* hexadecimal spelling without leading zeros, at most 4 digits (n < 65536) *)
Definition hex_spelling (dig : N -> N) (n : N) : list N :=
  if n <? 16 then [dig n]
  else if n <? 256 then [dig (n / 16); dig (n mod 16)]
  else if n <? 4096 then [dig (n / 256); dig ((n / 16) mod 16); dig (n mod 16)]
  else [dig (n / 4096); dig ((n / 256) mod 16); dig ((n / 16) mod 16); dig (n mod 16)].
Definition zeros (k : N) : list N := repeat 48 (N.to_nat k).
Definition dec_form (z n : N) : list N := zeros z ++ show_dec n.
Definition hex_form (dig : N -> N) (z n : N) : list N := [48; 120] ++ zeros z ++ hex_spelling dig n.

Definition opt_N_eqb (a b : option N) : bool :=
  match a, b with Some x, Some y => x =? y | None, None => true | _, _ => false end.
Lemma opt_N_eqb_eq a b : opt_N_eqb a b = true -> a = b.
Proof. destruct a, b; intros H; try discriminate; try reflexivity. apply N.eqb_eq in H. congruence. Qed.

Definition expected (n : N) : option N := if n <? 256 then Some n else None.

(* The value of a digit string read onto acc: parse_digits without the u8 bound. *)
Fixpoint digits_value (radix acc : N) (cs : list N) : option N :=
  match cs with
  | [] => Some acc
  | c :: r => match digit_val radix c with
              | Some d => digits_value radix (acc * radix + d) r
              | None => None
              end
  end.

Definition numeral (radix : N) (cs : list N) (v : N) : Prop :=
  cs <> [] /\ digits_value radix 0 cs = Some v.

Lemma digits_value_ge radix cs : 1 <= radix ->
  forall acc v, digits_value radix acc cs = Some v -> acc <= v.
Proof.
  intros Hr. induction cs as [|c r IH]; intros acc v H; cbn [digits_value] in H.
  - injection H as <-. lia.
  - destruct (digit_val radix c) as [d|]; [|discriminate]. apply IH in H.
    pose proof (N.mul_le_mono_l _ _ acc Hr). lia.
Qed.

(* The value never decreases: testing the bound at every digit, as parse_digits does, comes to testing it once at the end. *)
Lemma parse_digits_value radix cs : 1 <= radix ->
  forall acc v, acc < 256 -> digits_value radix acc cs = Some v -> parse_digits radix acc cs = expected v.
Proof.
  intros Hr. unfold expected.
  induction cs as [|c r IH]; intros acc v Hacc H; cbn [digits_value parse_digits] in *.
  - injection H as <-. destruct (N.ltb_spec acc 256); [reflexivity|lia].
  - destruct (digit_val radix c) as [d|]; [|discriminate].
    destruct (N.ltb_spec 255 (acc * radix + d)) as [Hover|Hfits]; [|apply IH; [lia|exact H]].
    apply digits_value_ge in H; [|exact Hr]. destruct (N.ltb_spec v 256); [lia|reflexivity].
Qed.

(* parse_u8 treats only a leading '+' (43) or '-' (45) specially, and neither is a digit in any radix; its match on c goes
   six binary digits deep *)
Lemma parse_u8_unsigned radix c r :
  digit_val radix c <> None -> parse_u8 radix (c :: r) = parse_digits radix 0 (c :: r).
Proof.
  intros H. destruct c as [|p]; [reflexivity|].
  do 6 (destruct p as [p|p|]; try reflexivity); elim H; reflexivity.
Qed.

Lemma parse_u8_numeral radix cs v : 1 <= radix -> numeral radix cs v -> parse_u8 radix cs = expected v.
Proof.
  intros Hr [Hne H]. destruct cs as [|c r]; [contradiction|].
  rewrite parse_u8_unsigned; [apply parse_digits_value; [exact Hr|lia|exact H]|].
  cbn [digits_value] in H. destruct (digit_val radix c); discriminate.
Qed.

(* the "0x" fallback needs 'x' (120) in second place *)
Lemma slave_parse_no_0x cs : nth 1 cs 0 <> 120 -> slave_parse cs = parse_u8 10 cs.
Proof.
  intros H. unfold slave_parse. destruct (parse_u8 10 cs); [reflexivity|].
  destruct cs as [|[|p] [|c2 r]]; try reflexivity; do 6 (destruct p as [p|p|]; try reflexivity).
  (* left: cs = 48 :: c2 :: r *)
  cbn [nth] in H. destruct c2 as [|p]; [reflexivity|].
  do 7 (destruct p as [p|p|]; try reflexivity). contradiction.
Qed.

(* a decimal numeral has a digit in second place, if any: when it is rejected as too large the fallback does not apply *)
Lemma slave_parse_decimal cs v : numeral 10 cs v -> slave_parse cs = expected v.
Proof.
  intros H. rewrite slave_parse_no_0x; [apply parse_u8_numeral; [lia|exact H]|].
  destruct H as [_ H]. destruct cs as [|c [|c2 r]]; try discriminate.
  cbn [nth]. intros ->. cbn [digits_value] in H. destruct (digit_val 10 c); discriminate.
Qed.

(* "0x..." fails as decimal at the x, whatever follows *)
Lemma slave_parse_hexadecimal cs v : numeral 16 cs v -> slave_parse (48 :: 120 :: cs) = expected v.
Proof.
  intros H. change (slave_parse (48 :: 120 :: cs)) with (parse_u8 16 cs).
  apply parse_u8_numeral; [lia|exact H].
Qed.

Lemma numeral_zeros radix z cs v : 1 <= radix -> numeral radix cs v -> numeral radix (zeros z ++ cs) v.
Proof.
  intros Hr [Hne H]. split.
  - intros E. apply app_eq_nil in E. tauto.
  - assert (H0 : digit_val radix 48 = Some 0).
    { cbn. destruct (N.ltb_spec 0 radix); [reflexivity|lia]. }
    unfold zeros. induction (N.to_nat z) as [|k IH]; [exact H|].
    cbn [repeat app digits_value]. rewrite H0. exact IH.
Qed.

Lemma digit_val_written radix dig :
  forallb (fun d => opt_N_eqb (digit_val radix (dig d)) (Some d)) (nrange radix) = true ->
  forall d, d < radix -> digit_val radix (dig d) = Some d.
Proof. intros H d Hd. apply opt_N_eqb_eq. exact (sweep _ radix H d Hd). Qed.

Lemma dec_digit_val d : d < 10 -> digit_val 10 (48 + d) = Some d.
Proof. exact (digit_val_written 10 (N.add 48) eq_refl d). Qed.
Lemma hex_lower_digit_val d : d < 16 -> digit_val 16 (hex_lower_digit d) = Some d.
Proof. exact (digit_val_written 16 hex_lower_digit eq_refl d). Qed.
Lemma hex_upper_digit_val d : d < 16 -> digit_val 16 (hex_digit_upper d) = Some d.
Proof. exact (digit_val_written 16 hex_digit_upper eq_refl d). Qed.

(* The printer conses the digits of n onto rest, least significant first: reading its output from 0 arrives at rest with n
   accumulated.  Fuel f is enough for f digits. *)
Lemma show_dec_go_value fuel : forall n rest, n < 10 ^ N.of_nat fuel ->
  digits_value 10 0 (show_dec_go fuel n rest) = digits_value 10 n rest.
Proof.
  induction fuel as [|f IH]; intros n rest Hn; cbn [show_dec_go].
  - replace n with 0 by (cbn in Hn; lia). reflexivity.
  - rewrite Nat2N.inj_succ, N.pow_succ_r' in Hn.
    assert (E : digits_value 10 (n / 10) ((48 + n mod 10) :: rest) = digits_value 10 n rest).
    { cbn [digits_value]. rewrite dec_digit_val by lia. f_equal. lia. }
    destruct (N.eqb_spec (n / 10) 0) as [Hz|_]; [rewrite <- Hz|rewrite IH by lia]; exact E.
Qed.

Lemma show_dec_go_nonempty fuel : forall n rest, fuel <> O \/ rest <> [] -> show_dec_go fuel n rest <> [].
Proof.
  induction fuel as [|f IH]; intros n rest H; cbn [show_dec_go]; [tauto|].
  destruct (n / 10 =? 0); [|apply IH; right]; discriminate.
Qed.

(* 40 is the fuel of show_dec *)
Lemma show_dec_numeral n : n < 10 ^ 40 -> numeral 10 (show_dec n) n.
Proof.
  intros Hn. split.
  - apply show_dec_go_nonempty. left. discriminate.
  - exact (show_dec_go_value 40 n [] Hn).
Qed.

Lemma hex_spelling_numeral dig n : (forall d, d < 16 -> digit_val 16 (dig d) = Some d) -> n < 65536 ->
  numeral 16 (hex_spelling dig n) n.
Proof.
  intros Hdig Hn. unfold hex_spelling.
  destruct (N.ltb_spec n 16); [|destruct (N.ltb_spec n 256); [|destruct (N.ltb_spec n 4096)]];
    (split; [discriminate|]); cbn [digits_value]; rewrite !Hdig by lia; f_equal; lia.
Qed.

Theorem slave_parse_dec_form z n : n < 10 ^ 40 -> slave_parse (dec_form z n) = expected n.
Proof. intros Hn. apply slave_parse_decimal, numeral_zeros, show_dec_numeral; [lia|exact Hn]. Qed.

Theorem slave_parse_hex_form dig z n : (forall d, d < 16 -> digit_val 16 (dig d) = Some d) -> n < 65536 ->
  slave_parse (hex_form dig z n) = expected n.
Proof.
  intros Hdig Hn. apply slave_parse_hexadecimal, numeral_zeros, hex_spelling_numeral; [lia|exact Hdig|exact Hn].
Qed.

Definition display_spec (n : N) : list N :=
  show_dec n ++ s2l " (0x" ++ (if n <? 16 then [48] else []) ++ hex_spelling hex_digit_upper n ++ s2l ")".

Definition display_check (n : N) : bool :=
  list_eqb N.eqb (slave_display n) (display_spec n)
  && opt_N_eqb (slave_parse (show_dec n)) (Some n)
  && opt_N_eqb (slave_parse ([48; 120] ++ (if n <? 16 then [48] else []) ++ hex_spelling hex_digit_upper n)) (Some n).

Lemma list_eqb_N_eq : forall a b, list_eqb N.eqb a b = true -> a = b.
Proof.
  induction a as [|x a IH]; destruct b as [|y b]; cbn; intros H; try discriminate; try reflexivity.
  apply andb_prop in H. destruct H as [H1 H2]. apply N.eqb_eq in H1. f_equal; auto.
Qed.

Definition partition_check (n : N) : bool :=
  let b := slave_is_broadcast n in let s := slave_is_single_device n in let r := slave_is_reserved n in
  (b && negb s && negb r) || (negb b && s && negb r) || (negb b && negb s && r).
