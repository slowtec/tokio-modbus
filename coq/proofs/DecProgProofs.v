(* DecProgProofs.v -- the model's read programs interpret to the model's decoders, for every byte string; so does any table
   with the same arm at each of the 256 function code bytes and no other keys *)
From Coq Require Import Lia.
From TM Require Import Base Pdu DecProg BaseLemmas PduDecode TablesProofs.

(* [run_dstmts] with what follows it built in: the binds nest to the right, as they do in dec_req / dec_rsp *)
Fixpoint run_k {A} (chk : list N -> outcome unit) (bs : list N) (ps : list dstmt) (env : list dval) (r : list N)
         (k : list dval -> list N -> outcome A) : outcome A :=
  match ps with
  | [] => k env r
  | DChkSize :: ps' => _ <- chk bs ;; run_k chk bs ps' env r k
  | DRead16 :: ps' => '(v, r') <- rd16 r ;; run_k chk bs ps' (env ++ [VN v]) r' k
  | DRead8 :: ps' => '(v, r') <- rd8 r ;; run_k chk bs ps' (env ++ [VN v]) r' k
  | DReadCoil :: ps' => '(v, r') <- rd16 r ;; b <- coil_to_bool v ;; run_k chk bs ps' (env ++ [VB b]) r' k
  | DReadRun :: ps' =>
      '(st, r') <- rd8 r ;;
      b <- (if st =? 0x00 then Val false else if st =? 0xFF then Val true else Fail KInvalidData) ;;
      run_k chk bs ps' (env ++ [VB b]) r' k
  | DFailIf c :: ps' => if eval_dcond bs env c then Fail KInvalidData else run_k chk bs ps' env r k
  | DLet e :: ps' => run_k chk bs ps' (env ++ [VN (eval_dexp bs env e)]) r k
  | DBits n q :: ps' =>
      coils <- unpack_coils (firstn (N.to_nat (eval_dexp bs env n)) r) (eval_dexp bs env q) ;;
      run_k chk bs ps' (env ++ [VBits coils]) (skipn (N.to_nat (eval_dexp bs env n)) r) k
  | DWords n :: ps' => '(ws, r') <- rd16s (N.to_nat (eval_dexp bs env n)) r ;; run_k chk bs ps' (env ++ [VWords ws]) r' k
  | DBytes n :: ps' => '(d, r') <- rd8s (N.to_nat (eval_dexp bs env n)) r ;; run_k chk bs ps' (env ++ [VBytes d]) r' k
  end.

Lemma run_k_eq {A} chk bs (k : list dval -> list N -> outcome A) : forall ps env r,
  ('(env', r') <- run_dstmts chk bs ps env r ;; k env' r') = run_k chk bs ps env r k.
Proof.
  induction ps as [|s ps IH]; intros env r; [reflexivity|].
  destruct s; cbn [run_dstmts run_k]; try apply IH.
  - apply bind_bind. intros []. apply IH.
  - apply bind_bind. intros [v r']. apply IH.
  - apply bind_bind. intros [v r']. apply IH.
  - apply bind_bind. intros [v r']. apply bind_bind. intros b. apply IH.
  - apply bind_bind. intros [st r']. apply bind_bind. intros b. apply IH.
  - destruct (eval_dcond bs env c); [reflexivity|apply IH].
  - apply bind_bind. intros coils. apply IH.
  - apply bind_bind. intros [ws r']. apply IH.
  - apply bind_bind. intros [d r']. apply IH.
Qed.

Lemma run_arm_k {A} chk (mk : list N -> list (option dval) -> option A) bs r a :
  run_arm chk mk bs r a =
  run_k chk bs (fst a) [] r (fun env r' => match mk (fst (snd a)) (pick env (snd (snd a))) with
                                           | Some v => finish r' v
                                           | None => Panic
                                           end).
Proof. apply run_k_eq. Qed.

Lemma lookup_arm_none t fc : existsb (fun ka => fc =? fst ka) t = false -> lookup_arm t fc = None.
Proof.
  induction t as [|[k a] t IH]; [reflexivity|]. cbn [existsb lookup_arm fst]. rewrite (N.eqb_sym k fc).
  destruct (fc =? k); [discriminate|exact IH].
Qed.

Theorem req_dec_prog_model_ok bs : run_req_dec req_dec_prog_model 0x80 bs = dec_req bs.
Proof.
  destruct bs as [|fc r]; [reflexivity|]. pattern fc. apply fc_cases; clear fc.
  (* a modelled code: the table's arm in continuation form computes to the decoder's branch, the same reads and guards in
     the same order *)
  1-11: etransitivity; [apply run_arm_k|reflexivity].
  (* any other code: the table has no arm *)
  intros fc M. rewrite dec_req_custom by exact M. unfold run_req_dec. cbn [rd8 bind]. rewrite lookup_arm_none; [reflexivity|].
  cbn [req_dec_prog_model existsb fst]. unmodelled M. reflexivity.
Qed.

Theorem rsp_dec_prog_model_ok bs : run_rsp_dec rsp_dec_prog_model bs = dec_rsp bs.
Proof.
  destruct bs as [|fc r]; [reflexivity|]. pattern fc. apply fc_cases; clear fc.
  1-11: etransitivity; [apply run_arm_k|reflexivity].
  intros fc M. rewrite dec_rsp_custom by exact M. unfold run_rsp_dec. cbn [rd8 bind]. rewrite lookup_arm_none; [reflexivity|].
  cbn [rsp_dec_prog_model existsb fst]. unmodelled M. reflexivity.
Qed.

Definition keys_small (t : dec_table) : bool := forallb (fun ka => fst ka <? 256) t.

Lemma lookup_arm_big t fc : keys_small t = true -> 256 <= fc -> lookup_arm t fc = None.
Proof.
  induction t as [|[k a] t IH]; intros Hs Hb; [reflexivity|].
  cbn [keys_small forallb fst] in Hs. apply andb_prop in Hs. destruct Hs as [Hk Hs].
  cbn [lookup_arm]. destruct (N.eqb_spec k fc) as [->|_]; [apply N.ltb_lt in Hk; lia|]. apply IH; assumption.
Qed.

Lemma lookup_arm_same t1 t2 fc : expand_arms t1 = expand_arms t2 -> keys_small t1 = true -> keys_small t2 = true ->
  lookup_arm t1 fc = lookup_arm t2 fc.
Proof.
  intros He H1 H2. destruct (N.lt_ge_cases fc 256) as [Hb|Hb]; [exact (ext_in_map He fc (bytes256_all fc Hb))|].
  rewrite (lookup_arm_big t1 fc H1 Hb), (lookup_arm_big t2 fc H2 Hb). reflexivity.
Qed.

(* the limit below which an unknown code is a custom request is an argument of the interpreter: the code's constant goes in
   by the equation (ObC08) *)
Theorem run_req_dec_is_dec_req t lim bs :
  expand_arms t = expand_arms req_dec_prog_model -> keys_small t = true -> lim = 0x80 -> run_req_dec t lim bs = dec_req bs.
Proof.
  intros He Hs ->. rewrite <- req_dec_prog_model_ok. unfold run_req_dec.
  destruct (rd8 bs) as [[fc r]|k|]; cbn [bind]; try reflexivity.
  rewrite (lookup_arm_same _ _ fc He Hs eq_refl). reflexivity.
Qed.
Theorem run_rsp_dec_is_dec_rsp t bs :
  expand_arms t = expand_arms rsp_dec_prog_model -> keys_small t = true -> run_rsp_dec t bs = dec_rsp bs.
Proof.
  intros He Hs. rewrite <- rsp_dec_prog_model_ok. unfold run_rsp_dec.
  destruct (rd8 bs) as [[fc r]|k|]; cbn [bind]; try reflexivity.
  rewrite (lookup_arm_same _ _ fc He Hs eq_refl). reflexivity.
Qed.
