(* Exchange.v -- the composed end-to-end theorem (C01 + C02 + C07 in one statement): the real client's
   call, the bytes it transmits handed to a server connection, the bytes that connection writes handed
   back to the same call.  [e2e_exchange] (model/Run.v) is this composition; it is what an `E2E` case
   line executes, on the model and -- over loopback sockets and a pty -- on the implementation. *)
From Coq Require Import Lia.
From TM Require Import Base Frame Pdu RtuCodec Framed Client Server Run Spec PduDecode PduEncode FramedProofs Codecs
  TcpProofs RtuCarried ClientProofs Histories ServerProofs EndToEnd.

(* a connected client between two calls: nothing latched, nothing buffered for writing, default
   transport scripts, nothing queued to read *)
Definition idle (st : cstate) : Prop :=
  framed st = true /\ clean st /\ reof (rst st) = false /\ w_default (wio_ st) /\ rq st = [] /\
  next_tid st < 65536 /\ unit_id st < 256.

(* unfolds to [Codecs.frame_of p h (spec_req_pdu r)] *)
Definition req_frame (p : proto) (h : hdr) (r : request) : list N :=
  match p with TCP => tcp_frame (fst h) (snd h) (spec_req_pdu r) | RTU => rtu_frame (snd h) (spec_req_pdu r) end.
Definition req_carried_by (p : proto) (r : request) : bool := match p with TCP => true | RTU => rtu_req_supported r end.
Definition rsp_carried_by (p : proto) (r : response) : bool := match p with TCP => true | RTU => rtu_rsp_supported r end.
Definition exc_carried_by (p : proto) (fc : N) : Prop := match p with TCP => True | RTU => 1 <= fc /\ fc <= 0x2B end.

Lemma served_ext p m : forall is svc w c1 c2, (forall s w', c1 s w' = c2 s w') -> served p m is svc w c1 = served p m is svc w c2.
Proof.
  induction is as [|[h req] is IH]; intros svc w c1 c2 He; cbn [served]; [apply He|]. f_equal.
  destruct (reply_of req _) as [rr|]; [|apply IH; exact He].
  destruct (send _ _ _) as [[[r w1] bg1] pn]. destruct pn; [reflexivity|]. destruct r; try reflexivity.
  f_equal. apply IH; exact He.
Qed.

Lemma req_frame_nonempty p h r : req_frame p h r <> [].
Proof. destruct p; discriminate. Qed.

Lemma req_hdr_fits p st : next_tid st < 65536 -> unit_id st < 256 -> hdr_fits p (req_hdr p st).
Proof. intros Ht Hu. destruct p; cbn; auto. Qed.

Lemma req_hdr_reset p st : req_hdr p (reset_acc st) = req_hdr p st.
Proof. reflexivity. Qed.
Lemma req_hdr_push p st q : req_hdr p (push_rq st q) = req_hdr p st.
Proof. reflexivity. Qed.

Lemma idle_sends p m st r : idle st -> req_ok r = true -> req_size r <= 253 ->
  send (client_enc p m (req_hdr p st) r) (wio_ (reset_acc st)) None =
  (SOk, mkW [] [] [] (req_frame p (req_hdr p st) r), None, false).
Proof.
  intros (_ & _ & _ & Hw & _) Hok Hsz. rewrite (client_enc_frame p m (req_hdr p st) r Hok Hsz).
  exact (send_default _ (wio_ st) Hw).
Qed.

(* an idle client sends exactly the frame, at once, then reads [q] with an empty receive buffer *)
Lemma idle_call p m st r q : idle st -> req_ok r = true -> req_size r <= 253 ->
  call p m (push_rq (reset_acc st) q) r None =
  let '(nr, r1, q1, _) := next (client_dec p) (mkR [] false (rreadable (rst st)) false) q None in
  (read_outcome p st r nr, upd st (unlatch nr r1) (mkW [] [] [] (req_frame p (req_hdr p st) r)) q1 (tid_after p st)).
Proof.
  intros Hi Hok Hsz. rewrite call_eq. pose proof Hi as (Hf & Hc & He & _ & Hq & _).
  change (framed (push_rq (reset_acc st) q)) with (framed st). rewrite Hf.
  change (send _ (wio_ (push_rq (reset_acc st) q)) None) with (send (client_enc p m (req_hdr p st) r) (wio_ (reset_acc st)) None).
  rewrite (idle_sends p m st r Hi Hok Hsz).
  change (rq (push_rq (reset_acc st) q)) with (rq st ++ q). rewrite Hq.
  unfold cleared. change (rst (push_rq (reset_acc st) q)) with (rst st). unfold clean in Hc. rewrite He, Hc. reflexivity.
Qed.

Lemma push_rq_nil st : push_rq st [] = st.
Proof. destruct st. unfold push_rq. cbn. rewrite app_nil_r. reflexivity. Qed.

(* [_full], here and below: the statement gives the state after the call as well *)
Lemma probe_call_full p m st r : idle st -> req_ok r = true -> req_size r <= 253 ->
  call p m (push_rq (reset_acc st) []) r None =
  (CRWait, upd st (mkR [] false false false) (mkW [] [] [] (req_frame p (req_hdr p st) r)) [] (tid_after p st)).
Proof.
  intros Hi Hok Hsz. rewrite (idle_call p m st r [] Hi Hok Hsz).
  rewrite (next_undecided (client_dec p) [] [] _ [] None (Forall_nil _) (nil_undecided _ (client_dec_nil p))). reflexivity.
Qed.

Lemma probe_call p m st r : idle st -> req_ok r = true -> req_size r <= 253 ->
  accepted (wio_ (snd (call p m (reset_acc st) r None))) = req_frame p (req_hdr p st) r.
Proof. intros Hi Hok Hsz. rewrite <- (push_rq_nil (reset_acc st)), probe_call_full by assumption. reflexivity. Qed.

Lemma be16_nonempty n : be16 n <> [].
Proof. discriminate. Qed.
(* the side condition of [served_default] *)
Lemma server_enc_nonempty p m h rr f : server_enc p m h rr = Val f -> f <> [].
Proof. rewrite server_enc_eq. apply frame_enc_nonempty. Qed.

Definition one_trace (p : proto) (m : mode) (h : hdr) (r : request) (rep : svc_reply) : list tev :=
  TCall (snd h) r ::
  match reply_of r rep with
  | None => [TWaiting]
  | Some rr => match server_enc p m h rr with
               | Val f => [TWrote f; TWaiting]
               | Fail k => [TReport k]
               | Panic => [TPanic]
               end
  end.

Lemma rev_bytes_datas cs : rev_bytes (datas cs) = length (concat cs).
Proof.
  induction cs as [|c cs IH]; [reflexivity|]. cbn [datas map rev_bytes concat]. rewrite app_length.
  unfold datas in IH. rewrite IH. reflexivity.
Qed.

Lemma serve_one_chunked p m st r rep cs : req_size r <= 253 -> canonical_req r = true -> req_carried_by p r = true ->
  next_tid st < 65536 -> unit_id st < 256 ->
  concat cs = req_frame p (req_hdr p st) r -> Forall nonempty cs ->
  serve_conn p m (datas cs) [] [] [rep] = one_trace p m (req_hdr p st) r rep.
Proof.
  intros Hsz Hc Hcar Ht Hu Hcat Hne. set (h := req_hdr p st) in *. set (fr := req_frame p h r) in *.
  assert (Hv : server_valid p fr (h, r)).
  { apply (request_frame_valid p h r Hsz Hc (req_hdr_fits p st Ht Hu)). intros ->. exact Hcar. }
  unfold serve_conn, process_fuel, rstate0. rewrite rev_bytes_datas, Hcat. set (n := length (datas cs)).
  replace (length fr + n + 2)%nat with (length [fr] + S (length fr + n))%nat by (cbn [length]; lia).
  rewrite <- (app_nil_r (datas cs)), (process_serves p m [fr] [(h, r)] cs [] false [] [rep]);
    [|repeat constructor; exact Hv|exact Hne|cbn [concat app]; rewrite app_nil_r; exact Hcat|reflexivity].
  (* the connection then waits for the next request; the default transport takes the reply frame at once *)
  rewrite (served_ext p m _ _ _ _ (fun _ _ => [TWaiting])) by (intros; apply end_waiting).
  rewrite served_default; [|repeat split|intros ? ? rr f _; apply server_enc_nonempty].
  unfold one_trace. cbn [trace_default]. destruct (reply_of r rep) as [rr|]; reflexivity.
Qed.

Lemma serve_one p m st r rep : req_size r <= 253 -> canonical_req r = true -> req_carried_by p r = true ->
  next_tid st < 65536 -> unit_id st < 256 ->
  serve_conn p m [RData (req_frame p (req_hdr p st) r)] [] [] [rep] = one_trace p m (req_hdr p st) r rep.
Proof.
  intros Hsz Hc Hcar Ht Hu. apply (serve_one_chunked p m st r rep [_] Hsz Hc Hcar Ht Hu); [apply app_nil_r|].
  repeat constructor. apply req_frame_nonempty.
Qed.

Lemma rsp_fc_pad r : rsp_fc (pad_rsp r) = rsp_fc r.
Proof. destruct r; reflexivity. Qed.

Lemma match_nonempty {A B} (l : list A) (a b : B) : l <> [] -> match l with [] => a | _ :: _ => b end = b.
Proof. destruct l; [congruence|reflexivity]. Qed.

Lemma req_fc_lt r : req_size r <= 253 -> canonical_req r = true -> fc_value (req_fc r) < 0x80.
Proof. intros Hsz Hc. eapply dec_req_fc_below. apply dec_req_spec_pdu; eassumption. Qed.

(* the same function as ClientProofs.tid_after *)
Definition tid_next (p : proto) (st : cstate) : N := match p with TCP => (next_tid st + 1) mod 65536 | RTU => next_tid st end.

Definition after (p : proto) (st : cstate) (r : request) : cstate :=
  mkC true (mkR [] false true false) (mkW [] [] [] (req_frame p (req_hdr p st) r)) [] (sq st) (tid_next p st) (unit_id st) (shutdowns st).

Lemma after_idle p st r : idle st -> idle (after p st r).
Proof.
  intros (Hf & Hc & He & Hw & Hq & Ht & Hu). unfold idle, after, clean, w_default. cbn. repeat split; try assumption.
  unfold tid_next. destruct p; [apply N.mod_lt; discriminate|assumption].
Qed.

(* after the probe: the same call with the server's reply frame to read, in any chunking *)
Lemma final_call_chunked p m st r f rr cs : idle st -> req_ok r = true -> req_size r <= 253 ->
  client_valid p f (req_hdr p st, rr) -> fc_value (rr_fc rr) = fc_value (req_fc r) ->
  concat cs = f -> Forall nonempty cs ->
  call p m (push_rq (reset_acc st) (datas cs)) r None =
  (match rr with RROk x => CROk x | RRExc e => CRExc (exr_exception e) end, after p st r).
Proof.
  intros Hi Hok Hsz Hv Hfc Hcat Hne. rewrite (idle_call p m st r (datas cs) Hi Hok Hsz).
  destruct (next_item (client_dec p) (client_valid p) (client_H1 p) (client_H2 p) cs [] (rreadable (rst st)) f (req_hdr p st, rr) [] None Hv Hne)
    as (b' & cs' & -> & Hr & Hne').
  { rewrite app_nil_r. exact Hcat. }
  { intros _. exists f. split; [eapply client_valid_nonempty; exact Hv|reflexivity]. }
  apply app_eq_nil in Hr. destruct Hr as [-> Hr].
  destruct cs' as [|c cs']; [|destruct (Forall_nonempty_cons _ _ Hne') as (? & ? & -> & _); discriminate].
  cbn [read_outcome unlatch].
  destruct (classify_cases p st r (req_hdr p st) rr) as [[E _]|[(_ & E & _)|(_ & _ & ->)]]; [elim E; reflexivity|contradiction|].
  destruct Hi as (Hf & _). unfold upd, after. rewrite Hf. reflexivity.
Qed.

(* the state is [after p st r], written out *)
Lemma final_call_full p m st r f rr : idle st -> req_ok r = true -> req_size r <= 253 ->
  client_valid p f (req_hdr p st, rr) -> fc_value (rr_fc rr) = fc_value (req_fc r) ->
  call p m (push_rq (reset_acc st) [RData f]) r None =
  (match rr with RROk x => CROk x | RRExc e => CRExc (exr_exception e) end,
   mkC true (mkR [] false true false) (mkW [] [] [] (req_frame p (req_hdr p st) r)) [] (sq st) (tid_next p st) (unit_id st) (shutdowns st)).
Proof.
  intros Hi Hok Hsz Hv Hfc. apply (final_call_chunked p m st r f rr [f] Hi Hok Hsz Hv Hfc (app_nil_r f)).
  repeat constructor. exact (client_valid_nonempty _ _ _ Hv).
Qed.

Lemma final_call p m st r f rr : idle st -> req_ok r = true -> req_size r <= 253 ->
  client_valid p f (req_hdr p st, rr) -> fc_value (rr_fc rr) = fc_value (req_fc r) ->
  fst (call p m (push_rq (reset_acc st) [RData f]) r None) = match rr with RROk x => CROk x | RRExc e => CRExc (exr_exception e) end.
Proof. intros. rewrite (final_call_full p m st r f rr) by assumption. reflexivity. Qed.

(* a chunker cuts a byte string into non-empty read chunks; the transit may use any *)
Definition chunker := list N -> list (list N).
Definition good_chunker (k : chunker) : Prop := forall l, concat (k l) = l /\ Forall nonempty (k l).

Definition e2e_chunked (p : proto) (m : mode) (st : cstate) (req : request) (svc : list svc_reply) (k1 k2 : chunker)
  : call_result * list tev * cstate :=
  let st0 := reset_acc st in
  let sent := accepted (wio_ (snd (call p m st0 req None))) in
  let tr := serve_conn p m (datas (k1 sent)) [] [] svc in
  let reply := concat (map tev_wrote tr) in
  let st1 := push_rq st0 (datas (k2 reply)) in
  let '(res, st2) := call p m st1 req None in (res, filter tev_is_call tr, st2).

Definition bytewise : chunker := map (fun b => [b]).
Definition whole : chunker := fun l => match l with [] => [] | _ => [l] end.
Lemma bytewise_good : good_chunker bytewise.
Proof.
  intros l. induction l as [|x l [IH1 IH2]]; [split; [reflexivity|constructor]|].
  split; [cbn; f_equal; exact IH1|constructor; [discriminate|exact IH2]].
Qed.
Lemma whole_good : good_chunker whole.
Proof.
  intros [|x l]; [split; [reflexivity|constructor]|].
  split; [cbn; rewrite app_nil_r; reflexivity|constructor; [discriminate|constructor]].
Qed.

(* what an `E2E` line runs is the instance "each direction in one piece" *)
Lemma e2e_exchange_whole p m st req svc :
  e2e_exchange p m st false req svc = let '(res, tr, st2) := e2e_chunked p m st req svc whole whole in (inl res, tr, st2).
Proof.
  unfold e2e_exchange, e2e_chunked. destruct (accepted _) as [|x sent];
    (destruct (concat _) as [|y reply]; cbn [whole datas map]; destruct (call p m _ req None); reflexivity).
Qed.

(* The service's answer [rep], encoded by the server as frame [f] which the client's decoder takes for [v]:
   under any fragmentation in both directions the service is invoked exactly once with the client's slave id and
   an equal request, the caller gets [v], and the client is idle again. *)
Theorem exchange_any_fragmentation p m st r rep rr f v k1 k2 :
  good_chunker k1 -> good_chunker k2 ->
  idle st -> req_ok r = true -> req_size r <= 253 -> canonical_req r = true -> req_carried_by p r = true ->
  reply_of r rep = Some rr -> server_enc p m (req_hdr p st) rr = Val f ->
  client_valid p f (req_hdr p st, v) -> fc_value (rr_fc v) = fc_value (req_fc r) ->
  e2e_chunked p m st r [rep] k1 k2 =
  (match v with RROk x => CROk x | RRExc e => CRExc (exr_exception e) end, [TCall (unit_id st) r], after p st r).
Proof.
  intros Hk1 Hk2 Hi Hok Hsz Hc Hcar Hrep Henc Hv Hfc. pose proof Hi as (_ & _ & _ & _ & _ & Ht & Hu).
  unfold e2e_chunked. rewrite (probe_call p m st r Hi Hok Hsz).
  destruct (Hk1 (req_frame p (req_hdr p st) r)) as [Hc1 Hn1].
  rewrite (serve_one_chunked p m st r rep _ Hsz Hc Hcar Ht Hu Hc1 Hn1). unfold one_trace. rewrite Hrep, Henc.
  cbn [map tev_wrote concat app filter tev_is_call]. rewrite app_nil_r. destruct (Hk2 f) as [Hc2 Hn2].
  rewrite (final_call_chunked p m st r f v _ Hi Hok Hsz Hv Hfc Hc2 Hn2). reflexivity.
Qed.

Theorem exchange_response_any_fragmentation p m st r rsp k1 k2 :
  good_chunker k1 -> good_chunker k2 ->
  idle st -> req_ok r = true -> req_size r <= 253 -> canonical_req r = true -> req_carried_by p r = true ->
  rsp_ok rsp = true -> rsp_size rsp <= 253 -> canonical_rsp rsp = true -> rsp_carried_by p rsp = true ->
  fc_value (rsp_fc rsp) = fc_value (req_fc r) ->
  e2e_chunked p m st r [SReply rsp] k1 k2 = (CROk (pad_rsp rsp), [TCall (unit_id st) r], after p st r).
Proof.
  intros Hk1 Hk2 Hi Hok Hsz Hc Hcar Hrok Hrsz Hrc Hrcar Hfc. pose proof Hi as (_ & _ & _ & _ & _ & Ht & Hu).
  pose proof (req_fc_lt r Hsz Hc) as Hlt.
  apply (exchange_any_fragmentation p m st r (SReply rsp) (RROk rsp) _ (RROk (pad_rsp rsp)) k1 k2 Hk1 Hk2 Hi Hok Hsz Hc Hcar eq_refl
           (server_enc_frame p m _ rsp Hrok Hrsz)).
  - apply (response_frame_valid p _ rsp Hrsz Hrc); [lia|exact (req_hdr_fits p st Ht Hu)|]. intros ->. exact Hrcar.
  - cbn [rr_fc]. rewrite rsp_fc_pad. exact Hfc.
Qed.

Theorem exchange_exception_any_fragmentation p m st r c k1 k2 :
  good_chunker k1 -> good_chunker k2 ->
  idle st -> req_ok r = true -> req_size r <= 253 -> canonical_req r = true -> req_carried_by p r = true ->
  exc_carried_by p (fc_value (req_fc r)) -> ex_value c < 256 ->
  e2e_chunked p m st r [SExc c] k1 k2 = (CRExc (ex_new (ex_value c)), [TCall (unit_id st) r], after p st r).
Proof.
  intros Hk1 Hk2 Hi Hok Hsz Hc Hcar Hxc Hcv. pose proof Hi as (_ & _ & _ & _ & _ & Ht & Hu).
  pose proof (req_fc_lt r Hsz Hc) as Hlt.
  apply (exchange_any_fragmentation p m st r (SExc c) _ _
           (RRExc {| exr_function := fc_new (fc_value (req_fc r)); exr_exception := ex_new (ex_value c) |})
           k1 k2 Hk1 Hk2 Hi Hok Hsz Hc Hcar eq_refl (server_enc_exc_frame p m _ (req_fc r) c Hlt)).
  - apply (exception_frame_valid p _ _ _ Hlt (req_hdr_fits p st Ht Hu)). intros ->. exact Hxc.
  - apply fc_roundtrip.
Qed.

Theorem exchange_response p m st r rsp :
  idle st -> req_ok r = true -> req_size r <= 253 -> canonical_req r = true -> req_carried_by p r = true ->
  rsp_ok rsp = true -> rsp_size rsp <= 253 -> canonical_rsp rsp = true -> rsp_carried_by p rsp = true ->
  fc_value (rsp_fc rsp) = fc_value (req_fc r) ->
  e2e_exchange p m st false r [SReply rsp] = (inl (CROk (pad_rsp rsp)), [TCall (unit_id st) r], after p st r).
Proof.
  intros. rewrite e2e_exchange_whole, (exchange_response_any_fragmentation p m st r rsp whole whole whole_good whole_good); auto.
Qed.

(* an exception answer: the caller gets the exception with the same numeric code *)
Theorem exchange_exception p m st r c :
  idle st -> req_ok r = true -> req_size r <= 253 -> canonical_req r = true -> req_carried_by p r = true ->
  exc_carried_by p (fc_value (req_fc r)) -> ex_value c < 256 ->
  e2e_exchange p m st false r [SExc c] = (inl (CRExc (ex_new (ex_value c))), [TCall (unit_id st) r], after p st r)
  /\ ex_value (ex_new (ex_value c)) = ex_value c.
Proof.
  intros. split; [|apply ex_roundtrip].
  rewrite e2e_exchange_whole, (exchange_exception_any_fragmentation p m st r c whole whole whole_good whole_good); auto.
Qed.

(* declined by the service: invoked once, nothing written, the caller keeps waiting *)
Theorem exchange_declined p m st r :
  idle st -> req_ok r = true -> req_size r <= 253 -> canonical_req r = true -> req_carried_by p r = true ->
  exists st', e2e_exchange p m st false r [SDecline] = (inl CRWait, [TCall (unit_id st) r], st').
Proof.
  intros Hi Hok Hsz Hc Hcar. pose proof Hi as (_ & _ & _ & _ & _ & Ht & Hu).
  unfold e2e_exchange. rewrite (probe_call p m st r Hi Hok Hsz).
  rewrite (match_nonempty _ _ _ (req_frame_nonempty p (req_hdr p st) r)), (serve_one p m st r SDecline Hsz Hc Hcar Ht Hu).
  unfold one_trace. cbn [reply_of map tev_wrote concat app].
  rewrite (probe_call_full p m st r Hi Hok Hsz). eexists. reflexivity.
Qed.

Inductive answer := AResp (rsp : response) | AExc (c : exception_code).
Definition svc_of (a : answer) : svc_reply := match a with AResp r => SReply r | AExc c => SExc c end.
Definition ok_exchange (p : proto) (x : request * answer) : Prop :=
  req_ok (fst x) = true /\ req_size (fst x) <= 253 /\ canonical_req (fst x) = true /\ req_carried_by p (fst x) = true /\
  match snd x with
  | AResp rsp => rsp_ok rsp = true /\ rsp_size rsp <= 253 /\ canonical_rsp rsp = true /\ rsp_carried_by p rsp = true /\
                 fc_value (rsp_fc rsp) = fc_value (req_fc (fst x))
  | AExc c => exc_carried_by p (fc_value (req_fc (fst x))) /\ ex_value c < 256
  end.
Definition expected (a : answer) : call_result :=
  match a with AResp rsp => CROk (pad_rsp rsp) | AExc c => CRExc (ex_new (ex_value c)) end.

Fixpoint exchanges (p : proto) (m : mode) (st : cstate) (xs : list (request * answer))
  : list ((call_result + typed_result) * list tev) :=
  match xs with
  | [] => []
  | (r, a) :: xs' => let '(res, calls, st') := e2e_exchange p m st false r [svc_of a] in (res, calls) :: exchanges p m st' xs'
  end.

(* every exchange of a sequence: the service is invoked once, with an equal request under the client's slave id,
   and the caller gets what the service produced -- whatever came before *)
Theorem exchanges_correct p m : forall xs st, idle st -> Forall (ok_exchange p) xs ->
  exchanges p m st xs = map (fun x => (inl (expected (snd x)), [TCall (unit_id st) (fst x)])) xs.
Proof.
  induction xs as [|[r a] xs IH]; intros st Hi Hall; [reflexivity|].
  inversion Hall as [|? ? (Hok & Hsz & Hc & Hcar & Ha) Hrest]; subst. cbn [fst snd] in *.
  cbn [exchanges map fst snd]. destruct a as [rsp|c]; cbn [svc_of expected].
  - destruct Ha as (Hrok & Hrsz & Hrc & Hrcar & Hfc).
    rewrite (exchange_response p m st r rsp Hi Hok Hsz Hc Hcar Hrok Hrsz Hrc Hrcar Hfc).
    rewrite (IH (after p st r) (after_idle p st r Hi) Hrest). reflexivity.
  - destruct Ha as (Hxc & Hcv).
    destruct (exchange_exception p m st r c Hi Hok Hsz Hc Hcar Hxc Hcv) as [He _]. rewrite He.
    rewrite (IH (after p st r) (after_idle p st r Hi) Hrest). reflexivity.
Qed.

Lemma client_new_idle p s : s < 256 -> idle (client_new p s).
Proof. intros Hs. unfold idle, client_new, clean, w_default. cbn. repeat split; assumption. Qed.
