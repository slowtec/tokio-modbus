(* PduEncode.v -- the encoders of Pdu.v produce the spec encodings; sizes; round trips. *)
From Coq Require Import Lia.
From TM Require Import Base Frame Pdu BaseLemmas Coils Spec PduDecode.

Lemma word_bytes_be16 w : w < 65536 -> word_bytes w = be16 w.
Proof. intros H. unfold word_bytes, be16, hi8, lo8. f_equal. lia. Qed.
Lemma u16_word_bytes w : u16 (w / 256) (w mod 256) = w.
Proof. unfold u16. lia. Qed.
Lemma flat_word_bytes ws : words_ok ws = true -> flat_map word_bytes ws = be16s ws.
Proof.
  induction ws as [|w ws IH]; intros H; [reflexivity|].
  apply words_ok_cons in H as [Hw Hws].
  cbn [flat_map]. rewrite word_bytes_be16 by exact Hw. rewrite IH by exact Hws. reflexivity.
Qed.
Lemma words_of_flat ws : words_of (flat_map word_bytes ws) = ws.
Proof.
  induction ws as [|w ws IH]; [reflexivity|].
  cbn [flat_map word_bytes app words_of]. rewrite <- u16_of_be16, u16_word_bytes, IH. reflexivity.
Qed.
Lemma len_word_bytes w : len (word_bytes w) = 2.
Proof. reflexivity. Qed.
Lemma len_flat_word_bytes ws : len (flat_map word_bytes ws) = 2 * len ws.
Proof. induction ws as [|w ws IH]; [reflexivity|]. cbn [flat_map word_bytes app]. rewrite !len_cons. lia. Qed.
#[export] Hint Rewrite len_word_bytes len_flat_word_bytes : len.

Lemma spec_byte_shift b0 b1 b2 b3 b4 b5 b6 b7 r i :
  spec_byte (b0 :: b1 :: b2 :: b3 :: b4 :: b5 :: b6 :: b7 :: r) (S i) = spec_byte r i.
Proof. unfold spec_byte. replace (8 * S i)%nat with (8 + 8 * i)%nat by lia. reflexivity. Qed.

Lemma spec_pack_eq : forall bs, spec_pack bs = pack_coils bs.
Proof.
  apply pack_ind.
  - reflexivity.
  - intros bs H. destruct bs as [|c0 [|c1 [|c2 [|c3 [|c4 [|c5 [|c6 [|c7 r]]]]]]]]; cbn [length] in H; try lia; reflexivity.
  - intros b0 b1 b2 b3 b4 b5 b6 b7 r IH. cbn [pack_coils]. unfold spec_pack. cbn [length].
    replace ((S (S (S (S (S (S (S (S (length r)))))))) + 7) / 8)%nat with (S ((length r + 7) / 8)) by lia.
    cbn [seq map]. f_equal.
    rewrite <- seq_shift, map_map. rewrite <- IH. unfold spec_pack. apply map_ext, spec_byte_shift.
Qed.

(* what every encoder returns; it can panic (at a length cast) only when the size is over the limit *)
Definition encodes (size fc : N) (o : outcome (list N)) : Prop :=
  match o with
  | Val pdu => len pdu = size /\ hd_error pdu = Some fc
  | Fail _ => False
  | Panic => 253 < size
  end.

Lemma encodes_len size fc o pdu : encodes size fc o -> o = Val pdu -> len pdu = size.
Proof. intros E ->. apply E. Qed.
Lemma encodes_never_fails size fc o k : encodes size fc o -> o <> Fail k.
Proof. intros E ->. exact E. Qed.
Lemma encodes_no_panic size fc o : encodes size fc o -> size <= 253 -> o <> Panic.
Proof. intros E Hsz ->. cbn in E. lia. Qed.

(* at a length cast ([bind_u16_len], [bind_u8_len]): whatever it returns, the rest encodes; it panics only over the limit *)
Lemma enc_req_encodes m r : encodes (req_size r) (fc_value (req_fc r)) (enc_req m r).
Proof.
  destruct r; cbn [enc_req req_size].
  (* 0F, 10, 17 cast the quantity to u16 and the byte count to u8 *)
  all: try (apply (bind_u16_len (encodes _ _)); [intros n Hn|cbn [encodes]; unfold packed_size; lia];
            apply (bind_u8_len (encodes _ _)); [intros c Hc|cbn [encodes]; unfold packed_size; lia]).
  all: split; [autorewrite with len; lia|reflexivity].
Qed.

Lemma enc_rsp_encodes m r : encodes (rsp_size r) (fc_value (rsp_fc r)) (enc_rsp m r).
Proof.
  destruct r; cbn [enc_rsp rsp_size].
  (* 01 02 03 04 11 17 cast the byte count to u8 *)
  all: try (apply (bind_u8_len (encodes _ _)); [intros c Hc|cbn [encodes]; unfold packed_size; lia]).
  (* 11 casts `2 + c` once more; enc_rsp spells that cast out, and it is u8_len m (2 + c) unfolded *)
  all: try (apply (bind_u8_len (encodes _ _) m (2 + c)); [intros c2 Hc2|cbn [encodes]; lia]).
  all: split; [autorewrite with len; lia|reflexivity].
Qed.

Lemma enc_req_len m r pdu : enc_req m r = Val pdu -> len pdu = req_size r.
Proof. exact (encodes_len _ _ _ pdu (enc_req_encodes m r)). Qed.
Lemma enc_rsp_len m r pdu : enc_rsp m r = Val pdu -> len pdu = rsp_size r.
Proof. exact (encodes_len _ _ _ pdu (enc_rsp_encodes m r)). Qed.
Lemma enc_req_never_fails m r k : enc_req m r <> Fail k.
Proof. exact (encodes_never_fails _ _ _ k (enc_req_encodes m r)). Qed.
Lemma enc_rsp_never_fails m r k : enc_rsp m r <> Fail k.
Proof. exact (encodes_never_fails _ _ _ k (enc_rsp_encodes m r)). Qed.
Lemma enc_rr_never_fails m rr k : enc_rr m rr <> Fail k.
Proof.
  destruct rr as [r|e]; cbn [enc_rr]; [apply enc_rsp_never_fails|].
  unfold enc_exc. destruct (_ <=? _); [destruct (dbg m)|]; discriminate.
Qed.
(* every debug assertion / checked arithmetic sits behind the size check *)
Lemma enc_req_no_panic m r : req_size r <= 253 -> enc_req m r <> Panic.
Proof. exact (encodes_no_panic _ _ _ (enc_req_encodes m r)). Qed.
Lemma enc_rsp_no_panic m r : rsp_size r <= 253 -> enc_rsp m r <> Panic.
Proof. exact (encodes_no_panic _ _ _ (enc_rsp_encodes m r)). Qed.

Lemma len_spec_req_pdu r : len (spec_req_pdu r) = req_size r.
Proof.
  destruct r as [| |a b| | | | | | | | |]; cbn [spec_req_pdu req_size]; autorewrite with len;
    rewrite ?spec_pack_eq, ?len_pack; try lia.
  destruct b; reflexivity.
Qed.
Lemma len_spec_rsp_pdu r : len (spec_rsp_pdu r) = rsp_size r.
Proof.
  destruct r as [| |a b| | | | | | | | |]; cbn [spec_rsp_pdu rsp_size]; autorewrite with len;
    rewrite ?spec_pack_eq, ?len_pack; try lia.
  destruct b; reflexivity.
Qed.

(* H : req_ok r = true or rsp_ok r = true, for a given variant: the fields are words *)
Ltac fields_ok H :=
  cbn [req_ok rsp_ok] in H; repeat (apply andb_prop in H; destruct H as [H ?]);
  repeat match goal with H : word_ok _ = true |- _ => apply word_ok_lt in H end.

(* the encoders produce the spec encodings (C01, C02, C09) *)
Theorem enc_req_spec m r : req_ok r = true -> req_size r <= 253 ->
  enc_req m r = Val (spec_req_pdu r) /\ len (spec_req_pdu r) = req_size r.
Proof.
  intros Hok Hsz. split; [|apply len_spec_req_pdu].
  destruct r as [| |a b| | | | | | | | |]; fields_ok Hok; cbn [req_size] in Hsz; cbn [enc_req spec_req_pdu].
  all: rewrite ?u16_len_fits, ?u8_len_fits by (unfold packed_size in *; lia); cbn [bind].
  (* the encoders write `len ws * 2`, the spec `2 * len ws` *)
  all: rewrite ?spec_pack_eq, ?len_pack, ?flat_word_bytes, ?word_bytes_be16, ?(N.mul_comm 2)
         by (assumption || (unfold packed_size in *; lia)); try reflexivity.
  destruct b; reflexivity.
Qed.

Theorem enc_rsp_spec m r : rsp_ok r = true -> rsp_size r <= 253 ->
  enc_rsp m r = Val (spec_rsp_pdu r) /\ len (spec_rsp_pdu r) = rsp_size r.
Proof.
  intros Hok Hsz. split; [|apply len_spec_rsp_pdu].
  destruct r as [| |a b| | | | | |id run d| | |]; fields_ok Hok; cbn [rsp_size] in Hsz; cbn [enc_rsp spec_rsp_pdu].
  all: rewrite ?u8_len_fits by lia; cbn [bind].
  all: rewrite ?spec_pack_eq, ?len_pack, ?flat_word_bytes, ?word_bytes_be16, ?(N.mul_comm 2)
         by (assumption || lia); try reflexivity.
  - destruct b; reflexivity.
  - destruct (N.ltb_spec 255 (2 + len d)); [lia|reflexivity].
Qed.

Theorem enc_exc_spec m f e : fc_value f < 0x80 ->
  enc_exc m {| exr_function := f; exr_exception := e |} = Val (spec_exc_pdu (fc_value f) (ex_value e)).
Proof.
  intros H. unfold enc_exc. cbn [exr_function exr_exception].
  destruct (N.leb_spec 128 (fc_value f)); [lia|]. reflexivity.
Qed.

(* Round trips: decode (encode v) = v (C01, C02, C08), for the values that can come back: a custom value with a modelled
   code is read as the typed variant or refused, a custom request with a code from 0x80 up is refused. *)
Definition canonical_req (r : request) : bool :=
  match r with
  | ReqCustom fc _ => (fc <? 0x80) && negb (modelled_fc fc)
  | _ => true
  end.
Definition canonical_rsp (r : response) : bool :=
  match r with
  | RspCustom fc _ => negb (modelled_fc fc)
  | _ => true
  end.

Lemma wf_req_custom_some fc d : fc < 0x80 -> modelled_fc fc = false -> wf_req (fc :: d) = Some (ReqCustom fc d).
Proof. intros Hlt Hm. rewrite wf_req_custom by exact Hm. apply if_Some. split; [lia|reflexivity]. Qed.

Theorem wf_req_spec_pdu r : req_size r <= 253 -> canonical_req r = true -> wf_req (spec_req_pdu r) = Some r.
Proof.
  intros Hsz Hc. destruct r as [| |a b| | | | | | | | |]; cbn [req_size] in Hsz; cbn [spec_req_pdu]; branch.
  all: rewrite ?u16_word_bytes, ?spec_pack_eq, ?all_bits_pack, ?firstn_len_app, ?words_of_flat; try reflexivity.
  all: try (apply if_Some; split; [autorewrite with len; unfold packed_size in *; lia|reflexivity]).
  - destruct b; reflexivity.
  - apply andb_prop in Hc. destruct Hc as [Hlt Hm]. apply wf_req_custom_some; [lia|apply negb_true_iff, Hm].
Qed.

Theorem dec_req_spec_pdu r : req_size r <= 253 -> canonical_req r = true -> dec_req (spec_req_pdu r) = Val r.
Proof. intros Hsz Hc. apply dec_req_val_iff, wf_req_spec_pdu; assumption. Qed.

Theorem wf_rsp_spec_pdu r : rsp_size r <= 253 -> canonical_rsp r = true -> wf_rsp (spec_rsp_pdu r) = Some (pad_rsp r).
Proof.
  intros Hsz Hc. destruct r as [| |a b| | | | | |id run d| | |]; cbn [rsp_size] in Hsz; cbn [spec_rsp_pdu pad_rsp]; branch.
  all: rewrite ?u16_word_bytes, ?spec_pack_eq, ?all_bits_pack, ?words_of_flat; try reflexivity.
  all: try (apply if_Some; split; [autorewrite with len; unfold packed_size in *; lia|reflexivity]).
  - destruct b; reflexivity.
  - destruct run; apply if_Some; (split; [autorewrite with len; lia|reflexivity]).
  - apply wf_rsp_custom, negb_true_iff, Hc.
Qed.

Theorem dec_rsp_spec_pdu r : rsp_size r <= 253 -> canonical_rsp r = true -> dec_rsp (spec_rsp_pdu r) = Val (pad_rsp r).
Proof. intros Hsz Hc. apply dec_rsp_val_iff, wf_rsp_spec_pdu; assumption. Qed.

(* exception PDUs: [fc + 0x80; code] decodes to the code pair, numerically *)
Theorem dec_exc_spec fc code : fc < 0x80 -> code < 256 ->
  exists e, dec_exc (spec_exc_pdu fc code) = Val e /\ fc_value (exr_function e) = fc_value (fc_new fc) /\ exr_exception e = ex_new code.
Proof.
  intros Hf Hc. unfold spec_exc_pdu. rewrite dec_exc_char.
  destruct (N.ltb_spec (fc + 128) 128); [lia|].
  eexists. split; [reflexivity|]. replace (fc + 128 - 128) with fc by lia. split; reflexivity.
Qed.
