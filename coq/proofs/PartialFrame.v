(* PartialFrame.v -- C13 / C14 for ARBITRARY buffer contents, not only proper prefixes of well-formed frames.  A
   receive buffer is PARTIAL when the decoder has accepted its beginning as the start of a frame (the length table /
   the MBAP length field announce n bytes) and fewer bytes have arrived.  Whatever the bytes -- also when the payload
   so far CONTAINS a complete, CRC-correct frame of its own -- the decoder leaves the buffer and every prefix of it
   alone ([partial_cli_undecided], [partial_srv_undecided]). *)
From Coq Require Import Lia.
From TM Require Import Base Frame Pdu RtuCodec TcpCodec Client Server BaseLemmas FramedProofs Codecs RtuProofs LenTables.

(* the relation [RtuProofs.prefix] *)
Definition pfx (q d : list N) := exists y, d = q ++ y.

(* RTU: the length table has accepted the header (or still waits for it) and the frame is incomplete: the case in
   which an attempt of the resynchronising loop waits (second premise of [RtuProofs.decode_loop_ind]) *)
Section Rtu.
  Variable pdu_len : list N -> outcome (option N).

  Definition rtu_partial (d : list N) : Prop :=
    pdu_len d = Val None \/ exists n, pdu_len d = Val (Some n) /\ len d < n + 3.

  Lemma rtu_partial_waits d : rtu_partial d -> rtu_frame_dec pdu_len d = (d, DNone).
  Proof. intros H. unfold rtu_frame_dec, MAX_RETRIES. rewrite (loop_waits pdu_len d 19 [] H). reflexivity. Qed.
End Rtu.

(* a table that looks only at bytes that are there: a longer buffer changes its answer only from "wait" *)
Lemma rtu_partial_prefix pdu_len q y :
  (forall q y, pdu_len (q ++ y) = pdu_len q \/ pdu_len q = Val None) ->
  rtu_partial pdu_len (q ++ y) -> rtu_partial pdu_len q.
Proof.
  intros Hpre H. destruct (Hpre q y) as [E|E]; [|left; exact E]. unfold rtu_partial in *. rewrite E in H.
  destruct H as [H|(n & H & Hl)]; [left; exact H|]. right. exists n. split; [exact H|]. rewrite len_app in Hl. lia.
Qed.

(* Modbus TCP: fewer than 7 bytes, or an accepted length field announcing more than has arrived *)
Definition tcp_partial (d : list N) : Prop :=
  len d < 7 \/ exists t1 t2 p1 p2 l1 l2 uid rest,
      d = t1 :: t2 :: p1 :: p2 :: l1 :: l2 :: uid :: rest /\ of_be16 l1 l2 <> 0 /\ len d < 7 + (of_be16 l1 l2 - 1).

Lemma tcp_partial_waits d : tcp_partial d -> adu_decode d = (d, DNone).
Proof.
  intros [H|(t1 & t2 & p1 & p2 & l1 & l2 & uid & rest & -> & Hz & Hl)].
  - destruct d as [|a1 [|a2 [|a3 [|a4 [|a5 [|a6 [|a7 q']]]]]]]; try reflexivity.
    exfalso. unfold len in H. cbn [length] in H. lia.
  - unfold adu_decode, HEADER_LEN. destruct (N.eqb_spec (of_be16 l1 l2) 0); [contradiction|].
    destruct (N.ltb_spec (len (t1 :: t2 :: p1 :: p2 :: l1 :: l2 :: uid :: rest)) (7 + (of_be16 l1 l2 - 1))); [reflexivity|lia].
Qed.

Lemma tcp_partial_prefix q y : tcp_partial (q ++ y) -> tcp_partial q.
Proof.
  intros H. destruct q as [|a1 [|a2 [|a3 [|a4 [|a5 [|a6 [|a7 q']]]]]]]; try (left; unfold len; cbn [length]; lia).
  destruct H as [H|(t1 & t2 & p1 & p2 & l1 & l2 & uid & rest & Hd & Hz & Hl)].
  - rewrite len_app in H. unfold len in H. cbn [length] in H. lia.
  - right. cbn [app] in Hd. injection Hd as -> -> -> -> -> -> -> Hr.
    do 8 eexists. split; [reflexivity|]. split; [exact Hz|].
    rewrite len_app in Hl. lia.
Qed.

Definition partial_cli (p : proto) (d : list N) : Prop := match p with TCP => tcp_partial d | RTU => rtu_partial rsp_pdu_len d end.
Definition partial_srv (p : proto) (d : list N) : Prop := match p with TCP => tcp_partial d | RTU => rtu_partial req_pdu_len d end.

Lemma partial_cli_prefix p q y : partial_cli p (q ++ y) -> partial_cli p q.
Proof. destruct p; [apply tcp_partial_prefix|apply rtu_partial_prefix; intros; rewrite !rsp_pdu_len_rule; apply rule_len_prefix]. Qed.
Lemma partial_srv_prefix p q y : partial_srv p (q ++ y) -> partial_srv p q.
Proof. destruct p; [apply tcp_partial_prefix|apply rtu_partial_prefix; intros; rewrite !req_pdu_len_rule; apply rule_len_prefix]. Qed.

Lemma partial_frame_dec p tbl d : match p with TCP => tcp_partial d | RTU => rtu_partial tbl d end -> frame_dec p tbl d = (d, DNone).
Proof. destruct p; intros H; [exact (tcp_partial_waits d H)|]. cbn [frame_dec]. rewrite (rtu_partial_waits tbl d H). reflexivity. Qed.

Lemma partial_cli_waits p d : partial_cli p d -> client_dec p d = (d, DNone).
Proof. intros H. rewrite client_dec_eq. apply lift_dec_none. exact (partial_frame_dec p rsp_pdu_len d H). Qed.
Lemma partial_srv_waits p d : partial_srv p d -> server_dec p d = (d, DNone).
Proof. intros H. rewrite server_dec_eq. apply lift_dec_none. exact (partial_frame_dec p req_pdu_len d H). Qed.

Lemma partial_cli_undecided p d : partial_cli p d -> undecided (client_dec p) d.
Proof. intros H q y ->. apply partial_cli_waits. eapply partial_cli_prefix; eauto. Qed.
Lemma partial_srv_undecided p d : partial_srv p d -> undecided (server_dec p) d.
Proof. intros H q y ->. apply partial_srv_waits. eapply partial_srv_prefix; eauto. Qed.

(* a partial outer frame whose payload is a complete, CRC-correct reply of its own: still partial *)
Example embedded_reply_is_partial :
  partial_cli RTU [0x59; 0x01; 0x0c; 0x00; 0x59; 0x01; 0x01; 0xc9; 0x82; 0xbe; 0x58]
  /\ rtu_client_dec [0x59; 0x01; 0x01; 0xc9; 0x82; 0xbe] = ([], DSome ((0, 0x59), RROk (RspReadCoils [true; false; false; true; false; false; true; true]))).
Proof.
  (* byte count 0x0c: a PDU of 2 + 12 = 14 bytes, 17 with slave id and CRC; 11 are there *)
  split; [right; exists 14; split; reflexivity|vm_compute; reflexivity].
Qed.
