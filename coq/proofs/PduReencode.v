(* PduReencode.v -- read off the shapes of PduDecode.v: a decoded value is no larger than its PDU, canonical, and has whole
   bytes of bits, so that the round trips of PduEncode.v apply to it (C08's re-encoding theorems). *)
From Coq Require Import Lia.
From TM Require Import Base Frame Pdu BaseLemmas Coils Spec PduDecode PduEncode.

Lemma req_shape_fits bs v : req_shape bs v -> req_size v <= len bs /\ canonical_req v = true.
Proof.
  destruct 1; cbn [req_size canonical_req]; rewrite ?len_cons, ?len_words_of;
    (split; [|try reflexivity]); try lia.
  unfold packed_size. rewrite len_firstn. lia.
Qed.

Lemma pad_bits_all_bits data : pad_bits (all_bits data) = all_bits data.
Proof.
  unfold pad_bits. rewrite length_all_bits. pose proof (pad_len_spec (8 * length data)).
  replace (pad_len (8 * length data)) with 0%nat by lia.
  apply app_nil_r.
Qed.

Lemma rsp_shape_fits bs v : rsp_shape bs v -> rsp_size v <= len bs /\ canonical_rsp v = true /\ pad_rsp v = v.
Proof.
  destruct 1; cbn [rsp_size canonical_rsp pad_rsp]; unfold packed_size;
    rewrite ?len_cons, ?len_words_of, ?len_all_bits, ?pad_bits_all_bits; repeat split; lia.
Qed.

(* the function code fixes the variant of a decoded response: the unreachable!() of the typed client methods is unreachable *)
Theorem dec_rsp_variant bs v : dec_rsp bs = Val v ->
  match v with RspCustom fc _ => modelled_fc fc = false | _ => True end /\ hd_error bs = Some (fc_value (rsp_fc v)).
Proof.
  intros H. apply dec_rsp_shape in H. split; [destruct H; trivial|apply rsp_shape_first_byte, H].
Qed.
