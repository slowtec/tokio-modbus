(* TcpProofs.v -- MBAP framing: the outcomes of the decoder on a whole header, and from them H1/H2 of the
   fragmentation theorem for the TCP decoders. *)
From Coq Require Import Lia.
From TM Require Import Base Frame Pdu RtuCodec TcpCodec BaseLemmas FramedProofs Codecs.

(* unfolds to [Codecs.frame_of TCP (tid, uid) pdu] *)
Definition tcp_frame (tid uid : N) (pdu : list N) : list N := mbap (tid, uid) (len pdu + 1) ++ pdu.

(* 65534: the 16-bit length field announces |pdu| + 1 *)
Definition hdr_ok (tid uid : N) (pdu : list N) : Prop :=
  tid < 65536 /\ uid < 256 /\ 1 <= len pdu /\ len pdu <= 65534.

Lemma tcp_frame_shape tid uid pdu :
  tcp_frame tid uid pdu = hi8 tid :: lo8 tid :: 0 :: 0 :: hi8 (len pdu + 1) :: lo8 (len pdu + 1) :: uid :: pdu.
Proof. reflexivity. Qed.

(* AduDecoder::decode on a whole header (a shorter buffer waits, by evaluation) *)
Section Header.
  Variables (t1 t2 p1 p2 l1 l2 uid : N) (rest : list N).

  Inductive adu_decode_spec : list N * dres (hdr * list N) -> Prop :=
  | AD_zero : of_be16 l1 l2 = 0 -> adu_decode_spec (t1 :: t2 :: p1 :: p2 :: l1 :: l2 :: uid :: rest, DErr KInvalidData)
  | AD_wait : of_be16 l1 l2 <> 0 -> len rest < of_be16 l1 l2 - 1 ->
      adu_decode_spec (t1 :: t2 :: p1 :: p2 :: l1 :: l2 :: uid :: rest, DNone)
  | AD_proto : of_be16 l1 l2 <> 0 -> of_be16 l1 l2 - 1 <= len rest -> of_be16 p1 p2 <> 0 ->
      adu_decode_spec (rest, DErr KInvalidData)
  | AD_frame : of_be16 l1 l2 <> 0 -> of_be16 l1 l2 - 1 <= len rest -> of_be16 p1 p2 = 0 ->
      adu_decode_spec (skipn (N.to_nat (of_be16 l1 l2 - 1)) rest,
                       DSome ((of_be16 t1 t2, uid), firstn (N.to_nat (of_be16 l1 l2 - 1)) rest)).

  Lemma adu_decode_is : adu_decode_spec (adu_decode (t1 :: t2 :: p1 :: p2 :: l1 :: l2 :: uid :: rest)).
  Proof.
    unfold adu_decode, HEADER_LEN. rewrite !len_cons.
    destruct (N.eqb_spec (of_be16 l1 l2) 0) as [Hz|Hz]; [apply AD_zero, Hz|].
    match goal with |- context [?a <? ?b] => destruct (N.ltb_spec a b) as [Hw|Hw] end; [apply AD_wait; [exact Hz|lia]|].
    destruct (N.eqb_spec (of_be16 p1 p2) 0) as [Hp|Hp]; [apply AD_frame|apply AD_proto]; assumption || lia.
  Qed.
End Header.

Lemma adu_decode_hdr tid uid n rest : tid < 65536 -> 1 <= n <= 65534 ->
  adu_decode (hi8 tid :: lo8 tid :: 0 :: 0 :: hi8 (n + 1) :: lo8 (n + 1) :: uid :: rest) =
  if len rest <? n then (hi8 tid :: lo8 tid :: 0 :: 0 :: hi8 (n + 1) :: lo8 (n + 1) :: uid :: rest, DNone)
  else (skipn (N.to_nat n) rest, DSome ((tid, uid), firstn (N.to_nat n) rest)).
Proof.
  intros Ht Hn. destruct (adu_decode_is (hi8 tid) (lo8 tid) 0 0 (hi8 (n + 1)) (lo8 (n + 1)) uid rest) as [Hz|Hz Hw|Hz Hw Hp|Hz Hw Hp];
    rewrite (of_be16_hi_lo (n + 1)) in * by lia; replace (n + 1 - 1) with n in * by lia.
  - lia.
  - destruct (N.ltb_spec (len rest) n); [reflexivity|lia].
  - elim Hp. reflexivity.
  - rewrite of_be16_hi_lo by exact Ht. destruct (N.ltb_spec (len rest) n); [lia|reflexivity].
Qed.

Lemma adu_decode_frame tid uid pdu x : hdr_ok tid uid pdu ->
  adu_decode (tcp_frame tid uid pdu ++ x) = (x, DSome ((tid, uid), pdu)).
Proof.
  intros (Ht & Hu & Hl). rewrite tcp_frame_shape. cbn [app]. rewrite adu_decode_hdr, len_app by lia.
  destruct (N.ltb_spec (len pdu + len x) (len pdu)); [lia|]. rewrite skipn_len_app, firstn_len_app. reflexivity.
Qed.

Lemma adu_decode_prefix tid uid pdu p : hdr_ok tid uid pdu ->
  proper_prefix p (tcp_frame tid uid pdu) -> adu_decode p = (p, DNone).
Proof.
  intros (Ht & Hu & Hl) [y [Hy Hf]]. rewrite tcp_frame_shape in Hf.
  destruct p as [|p1 [|p2 [|p3 [|p4 [|p5 [|p6 [|p7 rest]]]]]]]; try reflexivity.
  injection Hf as <- <- <- <- <- <- <- Hrest. rewrite adu_decode_hdr by lia.
  destruct (N.ltb_spec (len rest) (len pdu)) as [|Hge]; [reflexivity|].
  rewrite Hrest, len_app in Hge. destruct y; [congruence|]. rewrite len_cons in Hge. lia.
Qed.

Definition valid_req_frame (f : list N) (i : hdr * request) : Prop :=
  exists tid uid pdu, hdr_ok tid uid pdu /\ f = tcp_frame tid uid pdu /\ dec_req pdu = Val (snd i) /\ fst i = (tid, uid).
Definition valid_rsp_frame (f : list N) (i : hdr * rsp_result) : Prop :=
  exists tid uid pdu, hdr_ok tid uid pdu /\ f = tcp_frame tid uid pdu /\ dec_rsp_pdu pdu = Val (snd i) /\ fst i = (tid, uid).

(* both unfold to this, with their side's PDU decoder [pd] *)
Definition tcp_valid {A} (pd : list N -> outcome A) (f : list N) (i : hdr * A) : Prop :=
  exists tid uid pdu, hdr_ok tid uid pdu /\ f = tcp_frame tid uid pdu /\ pd pdu = Val (snd i) /\ fst i = (tid, uid).

Lemma tcp_valid_H1 {A} (pd : list N -> outcome A) f i x : tcp_valid pd f i -> lift_dec adu_decode pd (f ++ x) = (x, DSome i).
Proof.
  intros (tid & uid & pdu & Hh & -> & Hd & Hi). destruct i as [h v]. cbn in *. subst h.
  exact (lift_dec_some _ _ _ _ _ _ _ (adu_decode_frame tid uid pdu x Hh) Hd).
Qed.
Lemma tcp_valid_H2 {A} (pd : list N -> outcome A) f i q : tcp_valid pd f i -> proper_prefix q f -> lift_dec adu_decode pd q = (q, DNone).
Proof. intros (tid & uid & pdu & Hh & -> & _) Hp. exact (lift_dec_none _ _ _ _ (adu_decode_prefix tid uid pdu q Hh Hp)). Qed.
Lemma tcp_valid_nonempty {A} (pd : list N -> outcome A) f i : tcp_valid pd f i -> f <> [].
Proof. intros (t & u & p & _ & -> & _). discriminate. Qed.
