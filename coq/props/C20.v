(* C20 -- typed reads return exactly the requested number of items or an error. *)
From TM Require Import Base Frame Pdu Client TypedProofs Totality.

Theorem C20_exact_count_bits : forall req r bs,
  typed_post req r = TRBits bs ->
  exists a q rb, (req = ReqReadCoils a q /\ r = RspReadCoils rb \/ req = ReqReadDiscreteInputs a q /\ r = RspReadDiscreteInputs rb)
                 /\ len bs = q /\ bs = firstn (N.to_nat q) rb.
Proof. exact typed_read_exact_bits. Qed.

Theorem C20_exact_count_words : forall req r ws,
  typed_post req r = TRWords ws ->
  exists q, ((exists a, req = ReqReadInputRegisters a q /\ r = RspReadInputRegisters ws
                        \/ req = ReqReadHoldingRegisters a q /\ r = RspReadHoldingRegisters ws)
             \/ (exists ra wa wws, req = ReqReadWriteMultipleRegisters ra q wa wws /\ r = RspReadWriteMultipleRegisters ws))
            /\ len ws = q.
Proof.
  intros req r ws H. destruct req as [| | | |a q|a q| | | | |ra rq wa wws|], r; typed_cases H Hc;
    injection H as <-; apply N.eqb_eq in Hc.
  - exists q. split; [left; exists a; left; auto|exact Hc].
  - exists q. split; [left; exists a; right; auto|exact Hc].
  - exists rq. split; [right; eauto|exact Hc].
Qed.

Theorem C20_write_own_kind : forall req r,
  typed_post req r = TRUnit ->
  match req, r with
  | ReqWriteSingleCoil a b, RspWriteSingleCoil a' b' => a = a' /\ b = b'
  | ReqWriteMultipleCoils a bs, RspWriteMultipleCoils a' q => a = a' /\ len bs = q
  | ReqWriteSingleRegister a w, RspWriteSingleRegister a' w' => a = a' /\ w = w'
  | ReqWriteMultipleRegisters a ws, RspWriteMultipleRegisters a' q => a = a' /\ len ws = q
  | ReqMaskWriteRegister a x y, RspMaskWriteRegister a' x' y' => a = a' /\ x = x' /\ y = y'
  | _, _ => False
  end.
Proof.
  intros req r H. destruct req, r; typed_cases H Hc.
  (* the echo test: a conjunction of boolean equalities *)
  all: rewrite ?andb_true_iff, ?N.eqb_eq, ?Bool.eqb_true_iff in Hc; tauto.
Qed.

(* for every reply a server can send (anything the decoder accepts) that the call lets through
   (numerically the request's function code), the typed method returns a result: no panic *)
Theorem C20_no_panic : forall req r bs,
  is_typed_req req = true -> dec_rsp bs = Val r -> fc_value (rsp_fc r) = fc_value (req_fc req) ->
  typed_post req r <> TRErr CRPanic.
Proof. exact typed_post_no_panic. Qed.

Theorem C20_typed_is_call_then_post : forall p m st req bg,
  fst (typed p m st req bg) =
  match fst (call p m st req bg) with
  | CROk r => typed_post req r
  | CRExc e => TRExc e
  | c => TRErr c
  end.
Proof. exact typed_result_shape. Qed.

(* the whole typed method, for EVERY client state and EVERY behaviour of the transport (any reply bytes in any chunking, cut short,
   followed by end of stream or a read error, any write behaviour): a result, never a panic *)
Theorem C20_typed_never_panics_on_any_transport : forall p m st req bg,
  is_typed_req req = true -> fst (typed p m st req bg) <> TRErr CRPanic.
Proof. exact typed_no_panic. Qed.

Example C20_ex : typed_post (ReqReadHoldingRegisters 0 3) (RspReadHoldingRegisters [7]) = TRErr (CRTransport KInvalidData)
  /\ typed_post (ReqReadCoils 0 3) (RspReadCoils [true; false; true; false; false; false; false; false]) = TRBits [true; false; true].
Proof. split; reflexivity. Qed.
