(* C06 -- a client call succeeds only for the response that answers its request.
   [call_reply] is the reply item (header, decoded result) the call consumed, if it got that far;
   [req_hdr] the header it stamped on its request (transaction id and unit id for TCP, slave id for
   RTU).  Quantified over every client state (= every history), request, scripted transport. *)
From TM Require Import Frame Pdu Client ClientProofs.

Theorem C06_every_outcome_is_classified : forall p m st req bg,
  match call_reply p m st req bg with
  | Some i => fst (call p m st req bg) = classify p st req i
  | None => match fst (call p m st req bg) with
            | CROk _ | CRExc _ | CRHeaderMismatch _ | CRFcMismatch _ _ => False
            | _ => True
            end
  end.
Proof. exact call_classify. Qed.

(* success (response or inner exception) => same header and numerically the same function code *)
Theorem C06_success_only_if : forall p m st req bg,
  is_success (fst (call p m st req bg)) = true ->
  exists rr, call_reply p m st req bg = Some (req_hdr p st, rr)
             /\ fc_value (rr_fc rr) = fc_value (req_fc req)
             /\ fst (call p m st req bg) = match rr with RROk r => CROk r | RRExc e => CRExc (exr_exception e) end.
Proof. exact call_success_only_if. Qed.

(* another header => header-mismatch protocol error carrying the decoded reply *)
Theorem C06_header_mismatch : forall p m st req bg rh rr,
  call_reply p m st req bg = Some (rh, rr) -> rh <> req_hdr p st ->
  fst (call p m st req bg) = CRHeaderMismatch rr.
Proof. exact call_header_mismatch. Qed.

(* right header, another function code => function-code-mismatch protocol error carrying it *)
Theorem C06_function_code_mismatch : forall p m st req bg rr,
  call_reply p m st req bg = Some (req_hdr p st, rr) -> fc_value (rr_fc rr) <> fc_value (req_fc req) ->
  fst (call p m st req bg) = CRFcMismatch (req_fc req) rr.
Proof. exact call_fc_mismatch. Qed.

(* ---- the converse directions: exactly which replies produce which outcome ---- *)

(* success <=> the consumed reply carries the request's header and numerically its function code *)
Theorem C06_success_iff : forall p m st req bg,
  is_success (fst (call p m st req bg)) = true <->
  exists rr, call_reply p m st req bg = Some (req_hdr p st, rr)
             /\ fc_value (rr_fc rr) = fc_value (req_fc req).
Proof.
  intros p m st req bg. split.
  - intros Hs. destruct (call_success_only_if p m st req bg Hs) as [rr [H1 [H2 _]]]. exists rr. auto.
  - intros [rr [H1 H2]]. rewrite (call_returns_answer p m st req bg rr H1 H2). destruct rr; reflexivity.
Qed.

(* a header-mismatch error is reported exactly for a consumed reply with another header, and carries it *)
Theorem C06_header_mismatch_iff : forall p m st req bg rr,
  fst (call p m st req bg) = CRHeaderMismatch rr <->
  exists rh, call_reply p m st req bg = Some (rh, rr) /\ rh <> req_hdr p st.
Proof.
  intros p m st req bg rr. split.
  - intros Hc. pose proof (call_classify p m st req bg) as H. rewrite Hc in H.
    destruct (call_reply p m st req bg) as [[rh rr']|]; [|contradiction].
    destruct (classify_cases p st req rh rr') as [[Hne E]|[(_ & _ & E)|(_ & _ & E)]]; rewrite E in H.
    + injection H as ->. eauto.
    + discriminate.
    + destruct rr'; discriminate.
  - intros [rh [H1 H2]]. exact (call_header_mismatch p m st req bg rh rr H1 H2).
Qed.

(* a function-code-mismatch error is reported exactly for a consumed reply with the right header and
   another code; it carries the request's function code and that reply *)
Theorem C06_function_code_mismatch_iff : forall p m st req bg f rr,
  fst (call p m st req bg) = CRFcMismatch f rr <->
  (f = req_fc req /\ call_reply p m st req bg = Some (req_hdr p st, rr)
   /\ fc_value (rr_fc rr) <> fc_value (req_fc req)).
Proof.
  intros p m st req bg f rr. split.
  - intros Hc. pose proof (call_classify p m st req bg) as H. rewrite Hc in H.
    destruct (call_reply p m st req bg) as [[rh rr']|]; [|contradiction].
    destruct (classify_cases p st req rh rr') as [[_ E]|[(-> & Hne & E)|(_ & _ & E)]]; rewrite E in H.
    + discriminate.
    + injection H as -> ->. auto.
    + destruct rr'; discriminate.
  - intros [-> [H1 H2]]. exact (call_fc_mismatch p m st req bg rr H1 H2).
Qed.

(* the three reply-driven outcomes exclude one another and exhaust the calls that consumed a reply *)
Theorem C06_reply_outcome_cases : forall p m st req bg rh rr,
  call_reply p m st req bg = Some (rh, rr) ->
  let c := fst (call p m st req bg) in
  (rh <> req_hdr p st /\ c = CRHeaderMismatch rr) \/
  (rh = req_hdr p st /\ fc_value (rr_fc rr) <> fc_value (req_fc req) /\ c = CRFcMismatch (req_fc req) rr) \/
  (rh = req_hdr p st /\ fc_value (rr_fc rr) = fc_value (req_fc req)
   /\ c = match rr with RROk r => CROk r | RRExc e => CRExc (exr_exception e) end).
Proof. exact call_reply_cases. Qed.
