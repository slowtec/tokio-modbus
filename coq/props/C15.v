(* C15 -- disconnect shuts the transport down once and makes the client inert. *)
From TM Require Import Base Client ClientProofs Histories.

(* the first disconnect performs the shutdown; its result is the shutdown's, with NotConnected and
   BrokenPipe counted as success ([first_shutdown] skips Pending polls) *)
Theorem C15_first_disconnect : forall st, framed st = true ->
  fst (disconnect st) = first_shutdown (sq st) /\ framed (snd (disconnect st)) = false
  /\ shutdowns (snd (disconnect st)) = shutdowns st + 1.
Proof. exact disconnect_first. Qed.

(* disconnecting again succeeds without touching the transport *)
Theorem C15_disconnect_again : forall st, framed st = false -> disconnect st = (DROk, st).
Proof. exact disconnect_again. Qed.

(* afterwards every call fails with NotConnected, writes nothing, reads nothing *)
Theorem C15_inert : forall p m st req bg, framed st = false ->
  fst (call p m st req bg) = CRTransport KNotConnected
  /\ wio_ (snd (call p m st req bg)) = wio_ st /\ rq (snd (call p m st req bg)) = rq st
  /\ framed (snd (call p m st req bg)) = false /\ shutdowns (snd (call p m st req bg)) = shutdowns st.
Proof. intros p m st req bg Hf. rewrite call_eq, Hf. cbn. auto. Qed.

(* over every interleaving of calls, set_slave and disconnects: shutdown happens at most once, and
   exactly once as soon as the client is disconnected *)
Theorem C15_shutdown_exactly_once : forall p m ops st s0, conn_inv st s0 -> conn_inv (run_ops p m st ops) s0.
Proof.
  intros p m ops st s0. apply (run_ops_preserves p m (fun st => conn_inv st s0)).
  intros st' o. apply conn_inv_op.
Qed.

Example C15_ex : first_shutdown [SdPend; SdErr KBrokenPipe] = DROk /\ first_shutdown [SdErr (KOther 1)] = DRErr (KOther 1).
Proof. split; reflexivity. Qed.

(* a disconnect whose future is DROPPED while the transport's shutdown is still pending (a timeout around disconnect()): the
   transport had been taken out before the first suspension point, so the client is inert all the same -- later calls fail with
   NotConnected without writing (C15_inert), later disconnects do not touch the transport (C15_disconnect_again) -- and no
   completed shutdown is counted for it.  With an unlimited budget this is the plain disconnect. *)
Theorem C15_abandoned_disconnect_leaves_client_inert : forall st bg,
  framed (snd (disconnect_bg st bg)) = false
  /\ wio_ (snd (disconnect_bg st bg)) = wio_ st /\ rq (snd (disconnect_bg st bg)) = rq st
  /\ (shutdowns (snd (disconnect_bg st bg)) = shutdowns st \/ shutdowns (snd (disconnect_bg st bg)) = shutdowns st + 1).
Proof.
  intros st bg. unfold disconnect_bg. destruct (framed st) eqn:Hf; cbn [negb].
  - destruct (shutdown_bg (sq st) bg) as [[r q] dn]. cbn [snd framed wio_ rq shutdowns]. repeat split. destruct dn; auto.
  - cbn [snd]. auto.
Qed.
Theorem C15_disconnect_bg_is_disconnect : forall st, disconnect_bg st None = disconnect st.
Proof. intros st. unfold disconnect_bg. rewrite shutdown_bg_none. reflexivity. Qed.
