(* C05 -- Modbus TCP framing reassembles exact frames and rejects invalid MBAP headers.
   [valid_req_frame f i]: f = MBAP header (tid, protocol 0, length = |pdu|+1, unit) ++ pdu with
   1 <= |pdu| <= 65534 and the PDU decodes to the item's request ([valid_rsp_frame] likewise).
   [take_items dec n st evs] performs n successive [next]s and returns the n items. *)
From Coq Require Import Lia.
From TM Require Import Base Frame Pdu RtuCodec TcpCodec Framed Client Server BaseLemmas PduEncode FramedProofs TcpProofs
  Histories Slices SlicesClient Codecs.

(* any concatenation of well-formed frames, under EVERY composition into non-empty read chunks, is
   delivered frame by frame, each once, in order, header and PDU intact; nothing is left over *)
Theorem C05_server_reassembly : forall fs is cs,
  Forall2 valid_req_frame fs is -> Forall nonempty cs -> concat cs = concat fs ->
  exists st' cs', take_items tcp_server_dec (length fs) rstate0 (datas cs) = Some (is, st', datas cs')
                  /\ rbuf st' ++ concat cs' = [].
Proof. exact (frames_any_chunking tcp_server_dec valid_req_frame (tcp_valid_H1 dec_req) (tcp_valid_H2 dec_req) (tcp_valid_nonempty dec_req)). Qed.
Theorem C05_client_reassembly : forall fs is cs,
  Forall2 valid_rsp_frame fs is -> Forall nonempty cs -> concat cs = concat fs ->
  exists st' cs', take_items tcp_client_dec (length fs) rstate0 (datas cs) = Some (is, st', datas cs')
                  /\ rbuf st' ++ concat cs' = [].
Proof.
  exact (frames_any_chunking tcp_client_dec valid_rsp_frame (tcp_valid_H1 dec_rsp_pdu) (tcp_valid_H2 dec_rsp_pdu)
           (tcp_valid_nonempty dec_rsp_pdu)).
Qed.

(* the item of a frame followed by ANY bytes is delivered leaving exactly those bytes: nothing is
   taken from the next frame *)
Theorem C05_nothing_from_next_frame : forall f i x, valid_req_frame f i -> tcp_server_dec (f ++ x) = (x, DSome i).
Proof. exact (tcp_valid_H1 dec_req). Qed.

(* while a frame is incomplete nothing is delivered and the bytes stay buffered *)
Theorem C05_nothing_early_server : forall cs b rd f i,
  valid_req_frame f i -> Forall nonempty cs -> proper_prefix (b ++ concat cs) f ->
  exists st', next tcp_server_dec (mkR b false rd false) (datas cs) None = (NWait, st', [], None) /\ rbuf st' = b ++ concat cs.
Proof. intros cs b rd f i. exact (next_incomplete tcp_server_dec valid_req_frame (tcp_valid_H2 dec_req) cs b rd f i None). Qed.
Theorem C05_nothing_early_client : forall cs b rd f i,
  valid_rsp_frame f i -> Forall nonempty cs -> proper_prefix (b ++ concat cs) f ->
  exists st', next tcp_client_dec (mkR b false rd false) (datas cs) None = (NWait, st', [], None) /\ rbuf st' = b ++ concat cs.
Proof. intros cs b rd f i. exact (next_incomplete tcp_client_dec valid_rsp_frame (tcp_valid_H2 dec_rsp_pdu) cs b rd f i None). Qed.

(* invalid headers: a zero length field is an error as soon as the header is there; a non-zero
   protocol identifier never yields an item and is an error once the announced frame is complete *)
Theorem C05_zero_length : forall t1 t2 p1 p2 uid rest,
  adu_decode (t1 :: t2 :: p1 :: p2 :: 0 :: 0 :: uid :: rest) = (t1 :: t2 :: p1 :: p2 :: 0 :: 0 :: uid :: rest, DErr KInvalidData).
Proof. reflexivity. Qed.
Theorem C05_bad_protocol_never_item : forall t1 t2 p1 p2 l1 l2 uid rest,
  of_be16 p1 p2 <> 0 ->
  forall b r, adu_decode (t1 :: t2 :: p1 :: p2 :: l1 :: l2 :: uid :: rest) = (b, r) -> forall i, r <> DSome i.
Proof.
  intros t1 t2 p1 p2 l1 l2 uid rest Hp b r H i ->.
  destruct (adu_decode_is t1 t2 p1 p2 l1 l2 uid rest); [discriminate..|contradiction].
Qed.
Theorem C05_bad_protocol_error : forall t1 t2 p1 p2 l1 l2 uid rest,
  of_be16 p1 p2 <> 0 -> of_be16 l1 l2 <> 0 -> 7 + (of_be16 l1 l2 - 1) <= 7 + len rest ->
  adu_decode (t1 :: t2 :: p1 :: p2 :: l1 :: l2 :: uid :: rest) = (rest, DErr KInvalidData).
Proof.
  intros t1 t2 p1 p2 l1 l2 uid rest Hp Hl Hc.
  destruct (adu_decode_is t1 t2 p1 p2 l1 l2 uid rest); [contradiction|lia|reflexivity|contradiction].
Qed.

(* every frame the client transmits: protocol identifier 0, length field = PDU length + 1 (never
   truncated: PDU <= 253), unit id, PDU *)
Theorem C05_emitted_request_frame : forall m h r bs, fst h < 65536 -> tcp_client_enc m h r = Val bs ->
  exists pdu, enc_req m r = Val pdu /\ len pdu <= 253 /\ bs = tcp_frame (fst h) (snd h) pdu.
Proof.
  intros m h r bs Ht H. change (client_enc TCP m h r = Val bs) in H. rewrite client_enc_eq in H.
  destruct (N.le_gt_cases (req_size r) 253) as [Hs|Hs]; [|rewrite frame_enc_over in H by exact Hs; discriminate].
  destruct (frame_enc_fits TCP m h _ _ _ (enc_req_encodes m r) Hs) as (pdu & He & Hl & E). rewrite E in H. injection H as <-.
  exists pdu. destruct h. split; [exact He|]. split; [lia|reflexivity].
Qed.
Theorem C05_frame_layout : forall tid uid pdu,
  tcp_frame tid uid pdu = hi8 tid :: lo8 tid :: 0 :: 0 :: hi8 (len pdu + 1) :: lo8 (len pdu + 1) :: uid :: pdu.
Proof. exact tcp_frame_shape. Qed.

(* non-vacuity *)
Example C05_ex : valid_req_frame [0x12; 0x34; 0; 0; 0; 2; 0x56; 0x11] ((0x1234, 0x56), ReqReportServerId).
Proof. exists 0x1234, 0x56, [0x11]. unfold hdr_ok. repeat split; cbn; lia. Qed.

(* ---- arbitrary streams (not only concatenations of well-formed frames) ----
   whatever bytes arrive, in whatever fragmentation, and however the connection ends: every request handed to
   the service is carried by its own contiguous slice  tid(2) 00 00 len(2) unit pdu  with len = |pdu| + 1 of the
   received stream, the slices are pairwise disjoint and in stream order -- so nothing is ever taken from the
   bytes of the next frame, no frame is delivered twice, and a header with a non-zero protocol identifier is
   never the header of a delivered frame *)
Theorem C05_served_requests_are_disjoint_slices : forall m q wq fq svc, bytes_ok (sdata q) = true ->
  exists rest, Slices (call_slice TCP) (sdata q) (calls (serve_conn TCP m q wq fq svc)) rest.
Proof. exact (serve_conn_slices TCP). Qed.
Theorem C05_served_slice_shape : forall f c, call_slice TCP f c ->
  exists t1 t2 l1 l2 pdu, f = t1 :: t2 :: 0 :: 0 :: l1 :: l2 :: fst c :: pdu
    /\ of_be16 l1 l2 = len pdu + 1 /\ dec_req pdu = Val (snd c).
Proof. exact tcp_call_slice. Qed.
(* the same for the replies consumed by the calls of any client history *)
Theorem C05_consumed_replies_are_disjoint_slices : forall m ops st, bytes_ok (stream st ++ delivered ops) = true ->
  Slices (client_slice TCP) (stream st ++ delivered ops) (replies TCP m st ops) (stream (run_ops TCP m st ops)).
Proof. exact (history_slices TCP). Qed.
Theorem C05_reply_slice_shape : forall f i, client_slice TCP f i ->
  exists t1 t2 l1 l2 pdu, f = t1 :: t2 :: 0 :: 0 :: l1 :: l2 :: snd (fst i) :: pdu
    /\ fst (fst i) = of_be16 t1 t2 /\ of_be16 l1 l2 = len pdu + 1 /\ dec_rsp_pdu pdu = Val (snd i).
Proof. exact tcp_client_slice. Qed.
