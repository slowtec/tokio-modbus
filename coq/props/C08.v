(* C08 -- only well-formed PDUs are accepted, and each decodes to its unique meaning.
   The lemmas are in proofs/PduDecode.v, PduEncode.v, PduReencode.v.
   [wf_req] / [wf_rsp] (proofs/Spec.v) are the independent classifiers written by shape:
   Some v = well-formed with meaning v, None = ill-formed.  [verdict spec got] says: if the spec
   accepts with v the decoder returns exactly Val v, otherwise it returns an error Fail k --
   in particular never Panic. *)
From Coq Require Import Lia.
From TM Require Import Base Frame Pdu BaseLemmas Spec PduDecode PduEncode PduReencode.

Theorem C08_request_accept_exactly_wf : forall bs, verdict (wf_req bs) (dec_req bs).
Proof. exact dec_req_verdict. Qed.
Theorem C08_response_accept_exactly_wf : forall bs, verdict (wf_rsp bs) (dec_rsp bs).
Proof. exact dec_rsp_verdict. Qed.
Theorem C08_request_accept_iff : forall bs, (exists v, dec_req bs = Val v) <-> (exists v, wf_req bs = Some v).
Proof. split; intros [v H]; exists v; apply dec_req_val_iff; exact H. Qed.
Theorem C08_response_accept_iff : forall bs, (exists v, dec_rsp bs = Val v) <-> (exists v, wf_rsp bs = Some v).
Proof. split; intros [v H]; exists v; apply dec_rsp_val_iff; exact H. Qed.

(* exception PDUs: first byte >= 0x80 and a code byte; the meaning is (first - 0x80, code) *)
Theorem C08_exception_shape : forall bs,
  dec_exc bs = match bs with
               | [] => Fail KUnexpectedEof
               | f :: r => if f <? 0x80 then Fail KInvalidData else
                           match r with
                           | [] => Fail KUnexpectedEof
                           | c :: _ => Val {| exr_function := fc_new (f - 0x80); exr_exception := ex_new c |}
                           end
               end.
Proof. exact dec_exc_char. Qed.

(* no accepted PDU of a modelled function code is a proper prefix of another accepted PDU *)
Theorem C08_request_prefix_free : forall bs v x,
  wf_req bs = Some v -> modelled_fc (hd 0 bs) = true -> x <> [] -> wf_req (bs ++ x) = None.
Proof.
  intros bs v x H Hm Hx. destruct x as [|x0 x]; [congruence|]. apply wf_req_shape in H.
  destruct H; try reflexivity; try (branch; apply if_None; rewrite len_app, !len_cons; lia). cbn [hd] in Hm. congruence.
Qed.
Theorem C08_response_prefix_free : forall bs v x,
  wf_rsp bs = Some v -> modelled_fc (hd 0 bs) = true -> x <> [] -> wf_rsp (bs ++ x) = None.
Proof.
  intros bs v x H Hm Hx. destruct x as [|x0 x]; [congruence|]. apply wf_rsp_shape in H.
  destruct H; try reflexivity; try (branch; apply if_None; rewrite len_app, !len_cons; lia). cbn [hd] in Hm. congruence.
Qed.

(* function codes the library does not model are accepted as raw custom data, unchanged *)
Theorem C08_custom_request_unchanged : forall fc d,
  fc < 0x80 -> modelled_fc fc = false -> dec_req (fc :: d) = Val (ReqCustom fc d).
Proof. intros fc d H1 H2. apply dec_req_val_iff, wf_req_custom_some; assumption. Qed.
Theorem C08_custom_response_unchanged : forall fc d,
  modelled_fc fc = false -> dec_rsp (fc :: d) = Val (RspCustom fc d).
Proof. intros fc d. exact (dec_rsp_custom fc d). Qed.
Theorem C08_request_codes_below_0x80 : forall fc d v, 0x80 <= fc -> dec_req (fc :: d) <> Val v.
Proof.
  intros fc d v Hfc Hv. pose proof (dec_req_fc_below _ _ Hv) as Hlt.
  apply dec_req_shape, req_shape_first_byte in Hv. injection Hv as ->. lia.
Qed.

(* whatever is accepted (within the 253-byte PDU limit) re-encodes to a PDU that decodes to the same value *)
Theorem C08_request_reencode : forall bs v, dec_req bs = Val v -> len bs <= 253 ->
  dec_req (spec_req_pdu v) = Val v.
Proof.
  intros bs v H Hl. destruct (req_shape_fits bs v (dec_req_shape bs v H)) as [Hs Hc]. apply dec_req_spec_pdu; [lia|exact Hc].
Qed.
Theorem C08_response_reencode : forall bs v, dec_rsp bs = Val v -> len bs <= 253 ->
  dec_rsp (spec_rsp_pdu v) = Val v.
Proof.
  intros bs v H Hl. destruct (rsp_shape_fits bs v (dec_rsp_shape bs v H)) as (Hs & Hc & Hp).
  rewrite <- Hp at 2. apply dec_rsp_spec_pdu; [lia|exact Hc].
Qed.

(* non-vacuity: concrete PDUs on both sides of the classifier, incl. the repaired findings F1/F2 *)
Example C08_ex_accept : dec_req [0x0F; 0; 5; 0; 10; 2; 0xFF; 0x03] =
  Val (ReqWriteMultipleCoils 5 [true; true; true; true; true; true; true; true; true; true]).
Proof. reflexivity. Qed.
Example C08_ex_reject_F1 : dec_req [0x0F; 0; 0; 0xFF; 0xFF; 1; 0xAA] = Fail KInvalidData.
Proof. reflexivity. Qed.
Example C08_ex_reject_F2 : dec_req [0x10; 0; 0; 0x80; 0; 0] = Fail KInvalidData.
Proof. reflexivity. Qed.
Example C08_ex_rsp : dec_rsp [0x11; 3; 9; 0xFF; 7] = Val (RspReportServerId 9 true [7]).
Proof. reflexivity. Qed.
