(* C02 -- responses and exceptions reach the caller exactly as the service produced them. *)
From TM Require Import Base Frame Pdu RtuCodec Framed Client Server Spec PduEncode FramedProofs TcpProofs RtuCarried
  StreamProofs ClientProofs Histories TypedProofs EndToEnd Run Exchange.

(* 1. response / exception encoders are the spec encoders *)
Theorem C02_rsp_pdu_is_spec : forall m r, rsp_ok r = true -> rsp_size r <= 253 ->
  enc_rsp m r = Val (spec_rsp_pdu r) /\ len (spec_rsp_pdu r) = rsp_size r.
Proof. exact enc_rsp_spec. Qed.
Theorem C02_exc_pdu_is_spec : forall m f e, fc_value f < 0x80 ->
  enc_exc m {| exr_function := f; exr_exception := e |} = Val (spec_exc_pdu (fc_value f) (ex_value e)).
Proof. exact enc_exc_spec. Qed.

(* 2. the client-side decoder inverts them: register data unchanged, bit data in order and padded with
   false to a whole byte ([pad_rsp]); exceptions with the same numeric code *)
Theorem C02_decode_encode_rsp : forall r, rsp_size r <= 253 -> canonical_rsp r = true -> fc_value (rsp_fc r) < 0x80 ->
  dec_rsp_pdu (spec_rsp_pdu r) = Val (RROk (pad_rsp r)).
Proof. exact dec_rsp_pdu_of_rsp. Qed.
Theorem C02_decode_encode_exc : forall fc code, fc < 0x80 ->
  dec_rsp_pdu (spec_exc_pdu fc code) = Val (RRExc {| exr_function := fc_new fc; exr_exception := ex_new code |}).
Proof. exact dec_rsp_pdu_of_exc. Qed.

(* 3. the server writes exactly one frame under the request's header (C07) which is a valid frame for
   the client *)
Theorem C02_response_frame_valid_tcp : forall tid uid r,
  rsp_size r <= 253 -> canonical_rsp r = true -> fc_value (rsp_fc r) < 0x80 -> tid < 65536 -> uid < 256 ->
  valid_rsp_frame (tcp_frame tid uid (spec_rsp_pdu r)) ((tid, uid), RROk (pad_rsp r)).
Proof. intros tid uid r Hsz Hc Hfc Ht Hu. apply (response_frame_valid TCP (tid, uid) r Hsz Hc Hfc (conj Ht Hu)). discriminate. Qed.
Theorem C02_response_frame_valid_rtu : forall s r,
  rsp_size r <= 253 -> canonical_rsp r = true -> fc_value (rsp_fc r) < 0x80 -> rtu_rsp_supported r = true ->
  valid_rtu_rsp (rtu_frame s (spec_rsp_pdu r)) ((0, s), RROk (pad_rsp r)).
Proof. intros s r Hsz Hc Hfc Hs. exact (response_frame_valid RTU (0, s) r Hsz Hc Hfc eq_refl (fun _ => Hs)). Qed.
Theorem C02_exception_frame_valid_tcp : forall tid uid fc code, fc < 0x80 -> tid < 65536 -> uid < 256 ->
  valid_rsp_frame (tcp_frame tid uid (spec_exc_pdu fc code))
                  ((tid, uid), RRExc {| exr_function := fc_new fc; exr_exception := ex_new code |}).
Proof. intros tid uid fc code Hf Ht Hu. apply (exception_frame_valid TCP (tid, uid) fc code Hf (conj Ht Hu)). discriminate. Qed.
Theorem C02_exception_frame_valid_rtu : forall s fc code, 1 <= fc -> fc <= 0x2B ->
  valid_rtu_rsp (rtu_frame s (spec_exc_pdu fc code))
                ((0, s), RRExc {| exr_function := fc_new fc; exr_exception := ex_new code |}).
Proof. intros s fc code H1 H2. apply (exception_frame_valid RTU (0, s) fc code); [exact (N.le_lt_trans _ 0x2B 0x80 H2 eq_refl)|reflexivity|auto]. Qed.

(* 4. the call that issued the request returns that value, for any chunking of the reply frame, when the
   reply carries the request's header and numerically the request's function code -- incl. raw custom
   requests whose code has a named FunctionCode variant (finding F5, repaired) *)
Theorem C02_client_returns : forall p m st req bg f rr cs rest w bg1,
  framed st = true -> clean st -> reof (rst st) = false ->
  send (client_enc p m (req_hdr p st) req) (wio_ st) bg = (SOk, w, bg1, false) ->
  rq st = datas cs -> Forall nonempty cs -> concat cs = f ++ rest -> client_valid p f (req_hdr p st, rr) ->
  fc_value (rr_fc rr) = fc_value (req_fc req) ->
  fst (call p m st req bg) = match rr with RROk r => CROk r | RRExc e => CRExc (exr_exception e) end.
Proof. exact exchange_returns_reply. Qed.

(* 5. the typed bit reads return exactly the requested count, taken in order from the reply *)
Theorem C02_typed_bits_exact : forall req r bs,
  typed_post req r = TRBits bs ->
  exists a q rb, (req = ReqReadCoils a q /\ r = RspReadCoils rb \/ req = ReqReadDiscreteInputs a q /\ r = RspReadDiscreteInputs rb)
                 /\ len bs = q /\ bs = firstn (N.to_nat q) rb.
Proof. exact typed_read_exact_bits. Qed.

(* 6. THE COMPOSED STATEMENT (see C01.6): under every fragmentation in both directions the caller gets exactly what
   the service produced -- the response value (bit data padded to whole bytes), or the exception with the same
   numeric code -- and the client is idle again with the next transaction id *)
Theorem C02_exchange_response : forall p m st r rsp k1 k2,
  good_chunker k1 -> good_chunker k2 ->
  idle st -> req_ok r = true -> req_size r <= 253 -> canonical_req r = true -> req_carried_by p r = true ->
  rsp_ok rsp = true -> rsp_size rsp <= 253 -> canonical_rsp rsp = true -> rsp_carried_by p rsp = true ->
  fc_value (rsp_fc rsp) = fc_value (req_fc r) ->
  e2e_chunked p m st r [SReply rsp] k1 k2 = (CROk (pad_rsp rsp), [TCall (unit_id st) r], after p st r).
Proof. exact exchange_response_any_fragmentation. Qed.
Theorem C02_exchange_exception : forall p m st r c k1 k2,
  good_chunker k1 -> good_chunker k2 ->
  idle st -> req_ok r = true -> req_size r <= 253 -> canonical_req r = true -> req_carried_by p r = true ->
  exc_carried_by p (fc_value (req_fc r)) -> ex_value c < 256 ->
  e2e_chunked p m st r [SExc c] k1 k2 = (CRExc (ex_new (ex_value c)), [TCall (unit_id st) r], after p st r).
Proof. exact exchange_exception_any_fragmentation. Qed.
Theorem C02_exception_code_preserved : forall p m st r c,
  idle st -> req_ok r = true -> req_size r <= 253 -> canonical_req r = true -> req_carried_by p r = true ->
  exc_carried_by p (fc_value (req_fc r)) -> ex_value c < 256 ->
  e2e_exchange p m st false r [SExc c] = (inl (CRExc (ex_new (ex_value c))), [TCall (unit_id st) r], after p st r)
  /\ ex_value (ex_new (ex_value c)) = ex_value c.
Proof. exact exchange_exception. Qed.
Theorem C02_exchange_sequences : forall p m xs st, idle st -> Forall (ok_exchange p) xs ->
  exchanges p m st xs = map (fun x => (inl (expected (snd x)), [TCall (unit_id st) (fst x)])) xs.
Proof. exact exchanges_correct. Qed.
Theorem C02_idle_again : forall p st r, idle st -> idle (after p st r).
Proof. exact after_idle. Qed.
