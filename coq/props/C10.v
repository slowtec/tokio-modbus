(* C10 -- TCP transaction identifiers are fresh for every transmitted request.
   [run_ops] executes any history of calls (completed, failing at any point, abandoned, rejected
   before transmission), set_slave and disconnect on a client with a scripted transport. *)
From Coq Require Import Lia.
From TM Require Import Base Client ClientProofs Histories.

(* every call advances the id by exactly one mod 65536, whatever its outcome *)
Theorem C10_call_advances_by_one : forall m st req bg,
  next_tid (snd (call TCP m st req bg)) = (next_tid st + 1) mod 65536.
Proof. exact call_tid_advances. Qed.

(* after any history the counter is the number of calls so far, mod 65536 *)
Theorem C10_tid_counts_calls : forall m ops st, next_tid st < 65536 ->
  next_tid (run_ops TCP m st ops) = (next_tid st + ncalls ops) mod 65536.
Proof. exact next_tid_run_ops. Qed.
Theorem C10_tid_of_kth_call : forall m ops slave,
  fst (req_hdr TCP (run_ops TCP m (client_new TCP slave) ops)) = ncalls ops mod 65536.
Proof. exact tid_of_call. Qed.

(* any two calls fewer than 65536 calls apart carry different ids; the id never sticks *)
Theorem C10_distinct_in_window : forall i j, i < j -> j < i + 65536 -> i mod 65536 <> j mod 65536.
Proof. exact (mod_distinct 0). Qed.
Theorem C10_never_sticks : forall k, (k + 1) mod 65536 <> k mod 65536.
Proof. lia. Qed.

(* ---- over whole histories of one client ---- *)

(* the ids stamped after history h1 and after the longer history h1 ++ h2 differ whenever h2 holds between
   1 and 65535 calls -- whatever else h2 contains (slave changes, disconnects) and however its calls ended *)
Theorem C10_ids_of_two_calls_in_a_history_differ : forall m h1 h2 slave,
  0 < ncalls h2 -> ncalls h2 < 65536 ->
  fst (req_hdr TCP (run_ops TCP m (client_new TCP slave) h1))
  <> fst (req_hdr TCP (run_ops TCP m (client_new TCP slave) (h1 ++ h2))).
Proof.
  intros m h1 h2 slave H0 H1. rewrite !tid_of_call, ncalls_app.
  apply (mod_distinct 0 (ncalls h1) (ncalls h1 + ncalls h2)); lia.
Qed.

(* the id comes round again exactly when 65536 further calls have been made, never earlier *)
Theorem C10_id_repeats_exactly_after_65536_calls : forall m h1 h2 slave,
  ncalls h2 <= 65536 ->
  (fst (req_hdr TCP (run_ops TCP m (client_new TCP slave) h1))
   = fst (req_hdr TCP (run_ops TCP m (client_new TCP slave) (h1 ++ h2)))
   <-> ncalls h2 = 0 \/ ncalls h2 = 65536).
Proof. intros m h1 h2 slave H1. rewrite !tid_of_call, ncalls_app. split; lia. Qed.

(* changing the slave or disconnecting neither uses up nor resets an id *)
Theorem C10_other_operations_keep_the_id : forall m h1 h2 slave,
  ncalls h2 = 0 ->
  fst (req_hdr TCP (run_ops TCP m (client_new TCP slave) (h1 ++ h2)))
  = fst (req_hdr TCP (run_ops TCP m (client_new TCP slave) h1)).
Proof. intros m h1 h2 slave H. rewrite !tid_of_call, ncalls_app. f_equal. lia. Qed.
