(* C07 -- the server answers every request once, in order, under the request's own header.
   [served] (proofs/ServerProofs.v) is the loop body over the LIST of decoded requests: per request one
   service invocation, then at most one send of the reply framed under that request's own header,
   completed before the next request is looked at.  The theorem says the loop over the BYTE STREAM,
   under every chunking and every write/flush behaviour, does exactly that. *)
From TM Require Import Base Frame Pdu RtuCodec TcpCodec Framed Client Server FramedProofs ServerProofs EndToEnd Exchange
  ClientProofs PduEncode Totality ServerTrace.

Theorem C07_stream_is_served_request_by_request : forall p m fs is cs b rd tl svc w fuel,
  Forall2 (server_valid p) fs is -> Forall nonempty cs ->
  b ++ concat cs = concat fs -> (rd = false -> b = []) ->
  process (length fs + fuel) p m (mkR b false rd false) w (datas cs ++ tl) svc =
  served p m is svc w (fun svc' w' =>
    process fuel p m (mkR [] false (match fs with [] => rd | _ => true end) false) w' tl svc').
Proof. exact process_serves. Qed.

(* on a transport that accepts everything: the trace is, per request in arrival order, the invocation
   followed by exactly one Wrote of the reply frame (nothing when the service declines; the request's
   function code with the high bit set plus the service's exception code when it fails) *)
Theorem C07_trace : forall p m fin is svc w,
  w_default w ->
  (forall h req rr f, In (h, req) is -> server_enc p m h rr = Val f -> f <> []) ->
  served p m is svc w (fun _ _ => fin) = trace_default p m is svc fin.
Proof. exact served_default. Qed.

(* the reply frames are the spec frames under the request's header *)
Theorem C07_reply_frame_tcp : forall m tid uid r, rsp_ok r = true -> rsp_size r <= 253 -> tid < 65536 ->
  tcp_server_enc m (tid, uid) (RROk r) = Val (TcpProofs.tcp_frame tid uid (Spec.spec_rsp_pdu r)).
Proof. intros m tid uid r Hok Hsz _. exact (server_enc_frame TCP m (tid, uid) r Hok Hsz). Qed.
Theorem C07_reply_frame_rtu : forall m tid uid r, rsp_ok r = true -> rsp_size r <= 253 ->
  rtu_server_enc m (tid, uid) (RROk r) = Val (rtu_frame uid (Spec.spec_rsp_pdu r)).
Proof. intros m tid uid r. exact (server_enc_frame RTU m (tid, uid) r). Qed.
Theorem C07_exception_frame_tcp : forall m tid uid f e, fc_value f < 0x80 -> tid < 65536 ->
  tcp_server_enc m (tid, uid) (RRExc {| exr_function := f; exr_exception := e |})
  = Val (TcpProofs.tcp_frame tid uid (Spec.spec_exc_pdu (fc_value f) (ex_value e))).
Proof. intros m tid uid f e Hf _. exact (server_enc_exc_frame TCP m (tid, uid) f e Hf). Qed.
Theorem C07_exception_frame_rtu : forall m tid uid f e, fc_value f < 0x80 ->
  rtu_server_enc m (tid, uid) (RRExc {| exr_function := f; exr_exception := e |})
  = Val (rtu_frame uid (Spec.spec_exc_pdu (fc_value f) (ex_value e))).
Proof. intros m tid uid f e. exact (server_enc_exc_frame RTU m (tid, uid) f e). Qed.

(* every frame the server encoders produce is non-empty: the side condition of [C07_default_trace] always holds *)
Theorem C07_reply_frames_nonempty : forall p m h rr f, server_enc p m h rr = Val f -> f <> [].
Proof. exact server_enc_nonempty. Qed.
(* one request, cut into read chunks in any way, on a fresh connection with default transport: exactly the
   invocation and (unless declined) exactly one reply frame under the request's header, then the connection waits *)
Theorem C07_one_request_any_fragmentation : forall p m st r rep cs,
  req_size r <= 253 -> canonical_req r = true -> req_carried_by p r = true ->
  next_tid st < 65536 -> unit_id st < 256 ->
  concat cs = req_frame p (req_hdr p st) r -> Forall nonempty cs ->
  serve_conn p m (datas cs) [] [] [rep] = one_trace p m (req_hdr p st) r rep.
Proof. exact serve_one_chunked. Qed.

(* ---- ARBITRARY input: any bytes, fragmentation and faults on the read side, any service, any write / flush
   behaviour of the transport ----
   [Trace p m svc t] (proofs/ServerTrace.v): t is a sequence of blocks, each a service invocation [TCall slave req]
   followed -- before anything else happens on the connection -- by the bytes of exactly ONE frame
   [server_enc p m h rr] with [snd h = slave] and rr the service's answer to THIS request (the response, or the
   exception under the request's function code), or by nothing when the service declined; the trace ends with one
   terminal event, a reply that could not be encoded or written having put at most a prefix of that one frame on the
   line.  So no reply is ever reordered, duplicated, merged with another or attributed to another request, whatever
   else is on the line. *)
Theorem C07_every_trace_has_the_reply_shape : forall p m q wq fq svc, Trace p m svc (serve_conn p m q wq fq svc).
Proof. exact serve_conn_trace. Qed.
(* the bytes written over the life of the connection are the reply frames of the answered invocations, in invocation
   order, the last one possibly cut short: nothing else, nothing twice *)
Theorem C07_written_bytes_are_reply_frames_in_order : forall p m svc t, Trace p m svc t ->
  exists fs last, is_prefix (written t) (concat fs ++ last)
    /\ (forall f, In f (fs ++ [last]) -> f = [] \/ exists h rr, server_enc p m h rr = Val f).
Proof. exact trace_written. Qed.
(* and the only terminal events of a real connection are report / closed / waiting *)
Theorem C07_trace_ends_properly : forall p m q wq fq svc,
  ~ In TOutOfFuel (serve_conn p m q wq fq svc) /\ ~ In TPanic (serve_conn p m q wq fq svc).
Proof. exact Totality.serve_conn_terminates. Qed.

(* non-vacuity of the arbitrary-input shape: junk that the TCP framing rejects only AFTER a good request -- the request is
   answered (one frame under its own header), then the junk ends the connection with one report *)
Example C07_trace_example :
  serve_conn TCP debug_mode [RData ([0x00; 0x07; 0x00; 0x00; 0x00; 0x02; 0x2A; 0x11] ++ [0x00; 0x08; 0x00; 0x01; 0x00; 0x02; 0x2A; 0x11])] [] []
             [SExc ExIllegalFunction]
  = [TCall 0x2A ReqReportServerId; TWrote [0x00; 0x07; 0x00; 0x00; 0x00; 0x03; 0x2A; 0x91; 0x01]; TReport KInvalidData].
Proof. vm_compute. reflexivity. Qed.
