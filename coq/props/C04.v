(* C04 -- RTU delivers only CRC-valid frames and emits only CRC-correct frames. *)
From Coq Require Import Lia.
From TM Require Import Base Frame Pdu Crc RtuCodec Framed Client Server RtuProofs LenTables CrcProofs Histories Slices
  SlicesClient.

(* one call of the resynchronising decoder: the buffer is split into the bytes dropped by this call,
   then (if a frame is handed up) exactly slave :: pdu ++ CRC-16/MODBUS(slave :: pdu) low byte first,
   then the remaining buffer -- contiguous, in order, nothing lost, nothing invented; never a panic *)
Theorem C04_delivered_is_valid_slice_req : forall fuel buf dr b' dr' r, bytes_ok buf = true ->
  decode_loop req_pdu_len fuel buf dr = (b', dr', r) ->
  exists d, dr' = dr ++ d /\ r <> DPanic /\
    match r with DSome (s, p) => buf = d ++ rtu_frame s p ++ b' | _ => buf = d ++ b' end.
Proof. exact (decode_loop_segments req_pdu_len req_pdu_len_nil req_pdu_len_no_panic). Qed.
Theorem C04_delivered_is_valid_slice_rsp : forall fuel buf dr b' dr' r, bytes_ok buf = true ->
  decode_loop rsp_pdu_len fuel buf dr = (b', dr', r) ->
  exists d, dr' = dr ++ d /\ r <> DPanic /\
    match r with DSome (s, p) => buf = d ++ rtu_frame s p ++ b' | _ => buf = d ++ b' end.
Proof. exact (decode_loop_segments rsp_pdu_len rsp_pdu_len_nil rsp_pdu_len_no_panic). Qed.

(* a candidate whose CRC field is not the CRC of the bytes before it is never handed up, and the
   buffer is restored unchanged *)
Theorem C04_crc_mismatch_not_delivered : forall buf n b' r,
  frame_decode buf n = (b', r) -> (forall s p, r <> FSome s p) -> b' = buf.
Proof.
  intros buf n b' r. destruct (frame_decode_is buf n) as [|s p|]; intros [= <- <-] Hn; [reflexivity|elim (Hn s p); reflexivity|reflexivity].
Qed.
Theorem C04_check_is_crc : forall d c1 c2, c1 < 256 -> c2 < 256 -> check_crc d c1 c2 = true -> [c1; c2] = crc2 d.
Proof. exact check_crc_true. Qed.
Theorem C04_wrong_crc_rejected : forall d c1 c2, [c1; c2] <> crc2 d -> c1 < 256 -> c2 < 256 -> check_crc d c1 c2 = false.
Proof.
  intros d c1 c2 Hne H1 H2. destruct (check_crc d c1 c2) eqn:H; [|reflexivity].
  exfalso. apply Hne. apply check_crc_true; assumption.
Qed.

(* every emitted frame is slave :: pdu ++ crc2 (slave :: pdu) and the decoder accepts it *)
Theorem C04_emitted_frame_accepted : forall s p x, frame_decode (rtu_frame s p ++ x) (len p) = (x, FSome s p).
Proof. exact frame_decode_frame. Qed.

(* ---- why "a frame damaged in transit is never delivered as data": algebra of the CRC register ---- *)
(* GF(2)-linearity of the register, for data of any length *)
Theorem C04_crc_linear : forall d1 d2 a b, length d1 = length d2 ->
  crc_fold (N.lxor a b) (xor_bytes d1 d2) = N.lxor (crc_fold a d1) (crc_fold b d2).
Proof. exact crc_fold_xor. Qed.
(* a slice passes the check iff the register run over the WHOLE slice (CRC bytes included) ends at 0 *)
Theorem C04_residue : forall adu c1 c2, bytes_ok adu = true -> c1 < 256 -> c2 < 256 ->
  (check_crc adu c1 c2 = true <-> crc_fold 0xFFFF (adu ++ [c1; c2]) = 0).
Proof.
  intros adu c1 c2 Hok H1 H2. rewrite crc_fold_app. unfold check_crc, calc_crc, of_be16. fold (crc_reg adu).
  assert (Hc : crc_reg adu < 65536) by (apply crc_fold_closed; [lia|exact Hok]).
  generalize dependent (crc_reg adu). intros c Hc.
  (* both trailing bytes enter at once, as the word w; sixteen steps send only 0 to 0, so c = w *)
  rewrite crc_fold_serial by (unfold bytes_ok, forallb, byte_ok; lia).
  cbn [le_val length repeat]. set (w := c1 + 256 * (c2 + 256 * 0)).
  assert (Hx : N.lxor c w < 65536) by (apply (lxor_lt_pow2 _ _ 16); lia).
  unfold crc_fold, fold_left, byte_step. rewrite !N.lxor_0_r.
  rewrite !step8_zero_iff, N.lxor_eq_0_iff, N.eqb_eq by auto using step8_closed. unfold lo8, hi8. lia.
Qed.
(* every error pattern whose set bits lie within 16 consecutive transmitted bits (pattern p shifted to
   bit s of byte k), anywhere in a valid frame of ANY length, makes the residue non-zero: the corrupted
   slice fails the CRC check; single-bit errors are the case p = 1 *)
Theorem C04_detects_bursts : forall F k p s m,
  crc_fold 0xFFFF F = 0 -> 1 <= p -> p < 65536 -> s < 8 -> length F = (k + 3 + m)%nat ->
  crc_fold 0xFFFF (xor_bytes F (repeat 0 k ++ burst_bytes p s ++ repeat 0 m)) <> 0.
Proof. exact burst_detected. Qed.
Theorem C04_detects_single_bit : forall F k b m,
  crc_fold 0xFFFF F = 0 -> b < 8 -> length F = (k + 3 + m)%nat ->
  crc_fold 0xFFFF (xor_bytes F (repeat 0 k ++ burst_bytes 1 b ++ repeat 0 m)) <> 0.
Proof. intros F k b m Hv Hb Hl. apply burst_detected; try assumption; lia. Qed.

(* known-answer vectors of CRC-16/MODBUS (Modbus over serial line V1.02 and the suite's vectors) *)
Example C04_kat1 : crc2 [0x01; 0x03; 0x00; 0x00; 0x00; 0x01] = [0x84; 0x0A].
Proof. vm_compute. reflexivity. Qed.
Example C04_kat2 : calc_crc [0x12; 0x34; 0x23; 0x45; 0x34; 0x56; 0x45; 0x67] = 0xE2DB.
Proof. vm_compute. reflexivity. Qed.
Example C04_kat3 : crc_reg [0x31; 0x32; 0x33; 0x34; 0x35; 0x36; 0x37; 0x38; 0x39] = 0x4B37.
Proof. vm_compute. reflexivity. Qed.

(* ---- the whole stream, not just one decoder call ----
   [Slices R s is rest]: s = d0 ++ f1 ++ d1 ++ f2 ++ ... ++ fn ++ dn ++ rest with R fk ik for every k: the
   items are carried by pairwise disjoint contiguous slices of s, in order; the d's are what was dropped.
   [sdata q]: the bytes a read script delivers (chunk boundaries, pending polls, errors and end-of-stream
   events of the script are arbitrary). *)
(* frame layer: ANY bytes, ANY fragmentation, ANY number of calls however each of them ends *)
Theorem C04_frames_are_disjoint_slices_req : forall n st evs is s e, bytes_ok (rbuf st ++ sdata evs) = true ->
  n_calls (rtu_frame_dec req_pdu_len) n st evs = (is, s, e) ->
  Slices rtu_slice (rbuf st ++ sdata evs) is (rbuf s ++ sdata e).
Proof. exact (n_calls_slices _ _ (rtu_frame_dec_seg req_pdu_len req_pdu_len_nil req_pdu_len_no_panic)). Qed.
Theorem C04_frames_are_disjoint_slices_rsp : forall n st evs is s e, bytes_ok (rbuf st ++ sdata evs) = true ->
  n_calls (rtu_frame_dec rsp_pdu_len) n st evs = (is, s, e) ->
  Slices rtu_slice (rbuf st ++ sdata evs) is (rbuf s ++ sdata e).
Proof. exact (n_calls_slices _ _ (rtu_frame_dec_seg rsp_pdu_len rsp_pdu_len_nil rsp_pdu_len_no_panic)). Qed.
(* server: the requests handed to the service over the life of a connection -- any bytes, fragmentation,
   service behaviour, write behaviour -- are carried by disjoint slices of the received stream, in order *)
Theorem C04_served_requests_are_disjoint_slices : forall m q wq fq svc, bytes_ok (sdata q) = true ->
  exists rest, Slices (call_slice RTU) (sdata q) (calls (serve_conn RTU m q wq fq svc)) rest.
Proof. exact (serve_conn_slices RTU). Qed.
Theorem C04_served_slice_is_crc_valid : forall f c, call_slice RTU f c ->
  exists pdu, f = fst c :: pdu ++ crc2 (fst c :: pdu) /\ dec_req pdu = Val (snd c).
Proof. exact rtu_call_slice. Qed.
(* client: the replies consumed by the calls of ANY history (completed, failed, mismatching, abandoned calls;
   slave changes; disconnects) are carried by disjoint slices of the bytes the transport delivered, in order:
   the per-call clearing of the receive buffer and the drain after an error only drop bytes *)
Theorem C04_consumed_replies_are_disjoint_slices : forall m ops st, bytes_ok (stream st ++ delivered ops) = true ->
  Slices (client_slice RTU) (stream st ++ delivered ops) (replies RTU m st ops) (stream (run_ops RTU m st ops)).
Proof. exact (history_slices RTU). Qed.
Theorem C04_reply_slice_is_crc_valid : forall f i, client_slice RTU f i ->
  exists pdu, f = (snd (fst i) :: pdu) ++ crc2 (snd (fst i) :: pdu) /\ dec_rsp_pdu pdu = Val (snd i).
Proof. intros f i [pdu [[Hf _] Hd]]. exists pdu. split; [exact Hf|exact Hd]. Qed.

(* non-vacuity: noise, a frame, a damaged copy of it, another frame -- two requests reach the service *)
Example C04_slices_example :
  let f1 := rtu_frame 0x11 [0x03; 0x00; 0x6B; 0x00; 0x03] in
  let f2 := rtu_frame 0x11 [0x06; 0x00; 0x01; 0x00; 0x03] in
  let damaged := 0x11 :: 0x03 :: 0x00 :: 0x6B :: 0x00 :: 0x02 :: crc2 (0x11 :: [0x03; 0x00; 0x6B; 0x00; 0x03]) in
  calls (serve_conn RTU debug_mode [RData ([0xFE; 0xFD] ++ f1 ++ damaged); RPend; RData f2] [] [] [SDecline; SDecline])
  = [(0x11, ReqReadHoldingRegisters 0x6B 3); (0x11, ReqWriteSingleRegister 1 3)].
Proof. vm_compute. reflexivity. Qed.
