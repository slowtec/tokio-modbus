(* C17 -- the blocking client does exactly what the async client does.
   THIN by nature: the synchronous client is defined as delegation, so these theorems only pin the
   delegation table and the connect defaults; the assurance comes from the three-way differential
   execution (real sync client, real async client, model) in the check. *)
From TM Require Import Base Client Sync.

(* with no timeout every synchronous operation is the asynchronous operation of the same name: same
   state transition (hence same bytes written), same result *)
Theorem C17_call_refines : forall p m st req, sync_call p m false st req = call p m st req None.
Proof. intros. unfold sync_call. destruct (call p m st req None) as [r st']. destruct r; reflexivity. Qed.
Theorem C17_typed_refines : forall p m st req, sync_typed p m false st req = typed p m st req None.
Proof.
  intros. unfold sync_typed. destruct (typed p m st req None) as [r st']. destruct r as [| | | |c]; try reflexivity. destruct c; reflexivity.
Qed.
Theorem C17_set_slave_refines : forall st s, sync_set_slave st s = set_slave st s.
Proof. reflexivity. Qed.
(* a timeout changes the result only of a call that was still pending (C16) *)
Theorem C17_timeout_only_affects_pending : forall p m st req,
  snd (sync_call p m true st req) = snd (call p m st req None)
  /\ (fst (call p m st req None) <> CRWait -> fst (call p m st req None) <> CRAbandoned ->
      fst (sync_call p m true st req) = fst (call p m st req None)).
Proof.
  intros. unfold sync_call. destruct (call p m st req None) as [r st']. split; [reflexivity|].
  destruct r; cbn; congruence.
Qed.
(* connect without an explicit slave: TCP 255 (Slave::tcp_device), RTU 0 (Slave::broadcast) *)
Theorem C17_connect_defaults : sync_connect TCP None = sync_connect TCP (Some 255) /\ sync_connect RTU None = sync_connect RTU (Some 0).
Proof. split; reflexivity. Qed.

(* the blocking context = async context + the timeout applied to every subsequent operation: given at connect time,
   replaced by set_timeout, cleared by reset_timeout, never changed by an operation; an operation runs under exactly
   the timeout in force when it is issued, and set_timeout / reset_timeout / timeout() do not touch the connection *)
Theorem C17_timeout_in_force : forall p m c req t,
  fst (sctx_call p m (sync_set_timeout c t) req) = fst (sync_call p m (match t with Some _ => true | None => false end) (s_client c) req)
  /\ s_timeout (snd (sctx_call p m c req)) = s_timeout c
  /\ s_timeout (snd (sctx_typed p m c req)) = s_timeout c
  /\ s_client (sync_set_timeout c t) = s_client c /\ s_client (sync_reset_timeout c) = s_client c
  /\ s_timeout (sync_reset_timeout c) = None /\ s_timeout (sctx_set_slave c 7) = s_timeout c.
Proof.
  intros. unfold sctx_call, sctx_typed, sync_set_timeout, timed; cbn [s_client s_timeout].
  destruct (sync_call p m _ (s_client c) req) as [r st'].
  destruct (sync_call p m (match s_timeout c with Some _ => true | None => false end) (s_client c) req) as [r2 st2].
  destruct (sync_typed p m _ (s_client c) req) as [r3 st3]. repeat split.
Qed.
Theorem C17_connect_variants : forall p slave tmo,
  s_client (sync_connect_ctx p slave tmo) = sync_connect p slave /\ s_timeout (sync_connect_ctx p slave tmo) = tmo.
Proof. split; reflexivity. Qed.
