(* C01 -- requests reach the server exactly as issued, in Modbus wire format. *)
From Coq Require Import Lia.
From TM Require Import Base Frame Pdu RtuCodec TcpCodec Framed Client Server Spec PduEncode FramedProofs TcpProofs
  RtuCarried StreamProofs ClientProofs Histories ServerProofs EndToEnd Run Exchange.

(* 1. the PDU encoder is the independent spec encoder (big-endian fields, coils LSB first in byte i/8) *)
Theorem C01_pdu_is_spec : forall m r, req_ok r = true -> req_size r <= 253 ->
  enc_req m r = Val (spec_req_pdu r) /\ len (spec_req_pdu r) = req_size r.
Proof. exact enc_req_spec. Qed.
Theorem C01_packed_coils_by_index : forall bs, spec_pack bs = pack_coils bs.
Proof. exact spec_pack_eq. Qed.

(* 2. the server-side decoder inverts it: every typed request and every raw custom request whose code
   is < 0x80 and not one of the modelled codes *)
Theorem C01_decode_encode : forall r, req_size r <= 253 -> canonical_req r = true -> dec_req (spec_req_pdu r) = Val r.
Proof. exact dec_req_spec_pdu. Qed.

(* 3. a typed method issues exactly the request it names (read_coils(a,q) = call(ReadCoils(a,q)), ...) *)
Theorem C01_method_map : forall p m st req bg, snd (typed p m st req bg) = snd (call p m st req bg).
Proof. exact typed_state. Qed.

(* 4. the frame the client writes: MBAP header (transaction id, protocol 0, length = PDU+1, unit id) or
   slave id, then the spec PDU, (then the CRC) -- with the currently selected slave / unit id *)
Theorem C01_client_frame_tcp : forall m tid uid r, req_ok r = true -> req_size r <= 253 -> tid < 65536 ->
  tcp_client_enc m (tid, uid) r = Val (tcp_frame tid uid (spec_req_pdu r)).
Proof. intros m tid uid r Hok Hsz _. exact (client_enc_frame TCP m (tid, uid) r Hok Hsz). Qed.
Theorem C01_client_frame_rtu : forall m tid uid r, req_ok r = true -> req_size r <= 253 ->
  rtu_client_enc m (tid, uid) r = Val (rtu_frame uid (spec_req_pdu r)).
Proof. intros m tid uid r. exact (client_enc_frame RTU m (tid, uid) r). Qed.
(* ... written exactly once by a call that gets as far as a reply, for every write script *)
Theorem C01_frame_written_once : forall p m st req bg i,
  call_reply p m st req bg = Some i -> wbuf (wio_ (snd (call p m st req bg))) = []
  /\ exists fr, client_enc p m (req_hdr p st) req = Val fr
                /\ accepted (wio_ (snd (call p m st req bg))) = accepted (wio_ st) ++ wbuf (wio_ st) ++ fr.
Proof. exact call_completed_flushes. Qed.
(* ... stamped with the slave selected by the last set_slave *)
Theorem C01_set_slave_selects_unit : forall p st s, snd (req_hdr p (set_slave st s)) = s.
Proof. reflexivity. Qed.

(* 5. that frame is a valid frame for the server with exactly the issued request and slave id ... *)
Theorem C01_frame_valid_for_server_tcp : forall tid uid r,
  req_size r <= 253 -> canonical_req r = true -> tid < 65536 -> uid < 256 ->
  valid_req_frame (tcp_frame tid uid (spec_req_pdu r)) ((tid, uid), r).
Proof. intros tid uid r Hsz Hc Ht Hu. apply (request_frame_valid TCP (tid, uid) r Hsz Hc (conj Ht Hu)). discriminate. Qed.
Theorem C01_frame_valid_for_server_rtu : forall s r,
  req_size r <= 253 -> canonical_req r = true -> rtu_req_supported r = true ->
  valid_rtu_req (rtu_frame s (spec_req_pdu r)) ((0, s), r).
Proof. intros s r Hsz Hc Hs. exact (request_frame_valid RTU (0, s) r Hsz Hc eq_refl (fun _ => Hs)). Qed.
(* ... and a stream of valid frames, however fragmented, is served request by request: the service is
   handed each request exactly once, tagged with its slave id ([served] starts each step with
   TCall (snd h) req) *)
Theorem C01_server_delivers : forall p m fs is cs b rd tl svc w fuel,
  Forall2 (server_valid p) fs is -> Forall nonempty cs ->
  b ++ concat cs = concat fs -> (rd = false -> b = []) ->
  process (length fs + fuel) p m (mkR b false rd false) w (datas cs ++ tl) svc =
  served p m is svc w (fun svc' w' =>
    process fuel p m (mkR [] false (match fs with [] => rd | _ => true end) false) w' tl svc').
Proof. exact process_serves. Qed.

(* 6. THE COMPOSED STATEMENT ([Exchange.v]; [e2e_chunked] = the client's call, the bytes it transmits cut into
   read chunks by ANY chunker [k1] and handed to a server connection, the bytes that connection writes cut by ANY
   chunker [k2] and handed back to the same call; `E2E` case lines run the single-chunk instance [e2e_exchange] on
   the model and, over loopback sockets and a pty, on the implementation).  Whatever the service then does with the
   request -- answer, fail, decline -- it has been invoked exactly once, with the client's slave id and an equal request. *)
Theorem C01_exchange_delivers_request_answered : forall p m st r rsp k1 k2,
  good_chunker k1 -> good_chunker k2 ->
  idle st -> req_ok r = true -> req_size r <= 253 -> canonical_req r = true -> req_carried_by p r = true ->
  rsp_ok rsp = true -> rsp_size rsp <= 253 -> canonical_rsp rsp = true -> rsp_carried_by p rsp = true ->
  fc_value (rsp_fc rsp) = fc_value (req_fc r) ->
  e2e_chunked p m st r [SReply rsp] k1 k2 = (CROk (pad_rsp rsp), [TCall (unit_id st) r], after p st r).
Proof. exact exchange_response_any_fragmentation. Qed.
Theorem C01_exchange_delivers_request_declined : forall p m st r,
  idle st -> req_ok r = true -> req_size r <= 253 -> canonical_req r = true -> req_carried_by p r = true ->
  exists st', e2e_exchange p m st false r [SDecline] = (inl CRWait, [TCall (unit_id st) r], st').
Proof. exact exchange_declined. Qed.
(* ... and so for every sequence of exchanges on one client context *)
Theorem C01_exchange_sequences : forall p m xs st, idle st -> Forall (ok_exchange p) xs ->
  exchanges p m st xs = map (fun x => (inl (expected (snd x)), [TCall (unit_id st) (fst x)])) xs.
Proof. exact exchanges_correct. Qed.
Example C01_exchange_ex : idle (client_new TCP 17) /\ good_chunker bytewise /\ good_chunker whole /\
  ok_exchange TCP (ReqReadHoldingRegisters 7 2, AResp (RspReadHoldingRegisters [1; 2])) /\
  ok_exchange RTU (ReqWriteSingleRegister 1 2, AExc (ex_new 3)).
Proof.
  split; [apply client_new_idle; lia|]. split; [exact bytewise_good|]. split; [exact whole_good|].
  split; cbv; repeat split; congruence || lia.
Qed.
