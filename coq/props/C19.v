(* C19 -- function codes, exception codes and slave ids convert to numbers without loss.
   The lemmas are in proofs/C19_proofs.v (slave ids) and proofs/PduEncode.v (first byte). *)
From Coq Require Import Lia.
From TM Require Import Base Frame Pdu Slave Sweep PduDecode PduEncode C19_proofs.

(* any byte -> code -> byte is the identity *)
Theorem C19_fc_roundtrip : forall b, b < 256 -> fc_value (fc_new b) = b.
Proof. intros b _. apply fc_roundtrip. Qed.
Theorem C19_ex_roundtrip : forall b, b < 256 -> ex_value (ex_new b) = b.
Proof. intros b _. apply ex_roundtrip. Qed.

(* every code of the specification's table maps to its named variant, every other byte to the
   custom variant carrying that byte *)
Theorem C19_fc_named : forall b, b < 256 -> fc_new b = spec_fc b.
Proof.
  intros b _. destruct b as [|p]; [reflexivity|]. do 6 (destruct p as [p|p|]; try reflexivity).
Qed.
Theorem C19_ex_named : forall b, b < 256 -> ex_new b = spec_ex b.
Proof.
  intros b _. destruct b as [|p]; [reflexivity|]. do 4 (destruct p as [p|p|]; try reflexivity).
Qed.
Theorem C19_fc_table_rows : forall b f, In (b, f) spec_fc_table -> fc_new b = f /\ fc_value f = b.
Proof.
  intros b f H. cbn in H.
  repeat (destruct H as [H|H]; [injection H as <- <-; split; reflexivity|]). contradiction.
Qed.
Theorem C19_ex_table_rows : forall b e, In (b, e) spec_ex_table -> ex_new b = e /\ ex_value e = b.
Proof.
  intros b f H. cbn in H.
  repeat (destruct H as [H|H]; [injection H as <- <-; split; reflexivity|]). contradiction.
Qed.

(* the function code reported for a request / response is the first byte of its encoding
   (all variants, unbounded payloads, both build profiles) *)
Theorem C19_req_fc_is_first_byte : forall m r bs, enc_req m r = Val bs -> hd_error bs = Some (fc_value (req_fc r)).
Proof. intros m r bs H. pose proof (enc_req_encodes m r) as E. rewrite H in E. apply E. Qed.
Theorem C19_rsp_fc_is_first_byte : forall m r bs, enc_rsp m r = Val bs -> hd_error bs = Some (fc_value (rsp_fc r)).
Proof. intros m r bs H. pose proof (enc_rsp_encodes m r) as E. rewrite H in E. apply E. Qed.

(* decimal and 0x-hexadecimal (either case) spellings of n < 65536, with up to two leading zeros,
   parse to n exactly when n <= 255 and are rejected otherwise *)
Theorem C19_slave_parse : forall n z, n < 65536 -> z <= 2 ->
  slave_parse (dec_form z n) = expected n /\
  slave_parse (hex_form hex_lower_digit z n) = expected n /\
  slave_parse (hex_form hex_digit_upper z n) = expected n.
Proof.
  intros n z Hn _. split; [|split].
  - apply slave_parse_dec_form. lia.
  - apply slave_parse_hex_form; [exact hex_lower_digit_val|exact Hn].
  - apply slave_parse_hex_form; [exact hex_upper_digit_val|exact Hn].
Qed.

(* Display shows "<dec> (0x<HH>)" and both parts parse back to the id *)
Theorem C19_slave_display : forall n, n < 256 -> display_check n = true.
Proof. exact (sweep display_check 256 ltac:(vm_compute; reflexivity)). Qed.

(* every id is exactly one of broadcast / single device / reserved *)
Theorem C19_slave_partition : forall n, n < 256 -> partition_check n = true.
Proof. exact (sweep partition_check 256 ltac:(vm_compute; reflexivity)). Qed.

(* non-vacuity / sanity instances *)
Example C19_ex1 : fc_new 0x2B = FcEncapsulatedInterfaceTransport /\ fc_new 0x41 = FcCustom 0x41 /\ ex_new 0x0B = ExGatewayTargetDevice.
Proof. repeat split. Qed.
Example C19_ex2 : slave_parse (hex_form hex_digit_upper 1 255) = Some 255 /\ slave_parse (dec_form 0 256) = None.
Proof. split; vm_compute; reflexivity. Qed.
