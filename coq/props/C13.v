(* C13 -- transport faults surface as transport errors, never as data. *)
From TM Require Import Base Frame Pdu RtuCodec Framed Client FramedProofs FramedMore ClientProofs Histories PartialFrame.

(* end of stream or a read error after ANY proper prefix of the reply (any chunking) *)
Theorem C13_read_fault : forall p m st req bg f i cs tl w bg1 (e : revt),
  framed st = true -> clean st -> reof (rst st) = false -> rreadable (rst st) = false ->
  send (client_enc p m (req_hdr p st) req) (wio_ st) bg = (SOk, w, bg1, false) ->
  client_valid p f i -> Forall nonempty cs -> proper_prefix (concat cs) f ->
  rq st = datas cs ++ e :: tl -> (e = REof \/ exists k, e = RErr k) ->
  exists k, fst (call p m st req bg) = CRTransport k.
Proof.
  intros p m st req bg f i cs tl w bg1 e Hf Hc He _ Hs Hv Hne Hp. apply (fault_while_undecided p m st req bg cs tl w bg1 e Hf Hc He Hs Hne).
  exact (prefix_undecided _ _ (client_H2 p) f i _ Hv Hp).
Qed.

(* an orderly end of stream before any reply byte denotes a closed connection *)
Theorem C13_eof_is_broken_pipe : forall p m st req bg tl w bg1,
  framed st = true -> clean st -> reof (rst st) = false -> rreadable (rst st) = false ->
  send (client_enc p m (req_hdr p st) req) (wio_ st) bg = (SOk, w, bg1, false) ->
  rq st = REof :: tl -> client_dec p [] = ([], DNone) ->
  fst (call p m st req bg) = CRTransport KBrokenPipe.
Proof.
  intros p m st req bg tl w bg1 Hf Hc He _ Hs Hq Hd. rewrite call_eq, Hf, Hs. cbn [negb unsent]. unfold cleared.
  unfold clean in Hc. rewrite Hc, He, Hq.
  destruct (next_undecided_eof (client_dec p) [] [] (rreadable (rst st)) tl bg1 (Forall_nil _) (nil_undecided _ Hd)) as (st' & Hn).
  cbn [datas map app concat] in Hn. rewrite Hn. reflexivity.
Qed.

(* a write error / zero-length write at any offset: transport error, and what the transport accepted
   plus what is still buffered is exactly what was offered (so the accepted bytes are a prefix) *)
Theorem C13_write_fault : forall p m st req bg k w bg1,
  framed st = true ->
  send (client_enc p m (req_hdr p st) req) (wio_ st) bg = (SErr k, w, bg1, false) ->
  fst (call p m st req bg) = CRTransport k
  /\ exists fr, (fr = [] \/ client_enc p m (req_hdr p st) req = Val fr)
                /\ accepted w ++ wbuf w = accepted (wio_ st) ++ wbuf (wio_ st) ++ fr.
Proof.
  intros p m st req bg k w bg1 Hf Hs. split.
  - rewrite call_eq, Hf, Hs. reflexivity.
  - apply send_conserve in Hs. destruct Hs as (fr & Hfr & Hc & _). eauto.
Qed.

(* piecewise / intermittent writes: for EVERY write script (any granularity, any pending pattern) the
   bytes handed to the transport plus the bytes still buffered are conserved, and a successful send
   has handed over everything, once and in order *)
Theorem C13_write_pieces : forall frame w bg r w' bg' pn,
  send frame w bg = (r, w', bg', pn) ->
  exists fr, (fr = [] \/ frame = Val fr) /\ accepted w' ++ wbuf w' = accepted w ++ wbuf w ++ fr
             /\ (r = SOk -> pn = false -> frame = Val fr /\ wbuf w' = []) /\ r <> SWait.
Proof. exact send_conserve. Qed.

(* "never success built from a partial frame", for ARBITRARY bytes: what has arrived when the stream ends or fails is a PARTIAL frame --
   the decoder has accepted its beginning as the start of a reply announcing more bytes than have arrived (RTU: the response length
   table; TCP: a non-zero MBAP length field, or fewer than 7 bytes).  Whatever those bytes are -- in particular when the payload received
   so far contains a complete, CRC-correct reply of its own ([C13_ex_embedded]) -- and however they were chunked: a transport error *)
Theorem C13_partial_frame_then_fault : forall p m st req bg cs tl w bg1 (e : revt),
  framed st = true -> clean st -> reof (rst st) = false -> rreadable (rst st) = false ->
  send (client_enc p m (req_hdr p st) req) (wio_ st) bg = (SOk, w, bg1, false) ->
  Forall nonempty cs -> partial_cli p (concat cs) ->
  rq st = datas cs ++ e :: tl -> (e = REof \/ exists k, e = RErr k) ->
  exists k, fst (call p m st req bg) = CRTransport k.
Proof.
  intros p m st req bg cs tl w bg1 e Hf Hc He _ Hs Hne Hp.
  exact (fault_while_undecided p m st req bg cs tl w bg1 e Hf Hc He Hs Hne (partial_cli_undecided p _ Hp)).
Qed.
(* being partial is inherited by every prefix (so every intermediate buffer was partial too), and a partial buffer yields nothing *)
Theorem C13_partial_prefix_closed : forall p q y, partial_cli p (q ++ y) -> partial_cli p q.
Proof. exact partial_cli_prefix. Qed.
Theorem C13_partial_yields_nothing : forall p d, partial_cli p d -> client_dec p d = (d, DNone).
Proof. exact partial_cli_waits. Qed.
Example C13_ex_embedded :
  partial_cli RTU [0x59; 0x01; 0x0c; 0x00; 0x59; 0x01; 0x01; 0xc9; 0x82; 0xbe; 0x58]
  /\ rtu_client_dec [0x59; 0x01; 0x01; 0xc9; 0x82; 0xbe] = ([], DSome ((0, 0x59), RROk (RspReadCoils [true; false; false; true; false; false; true; true]))).
Proof. exact embedded_reply_is_partial. Qed.
