(* C14 -- a server connection ends cleanly or with one error report; the server lives on.
   Combine with C07_stream_is_served_request_by_request: all complete requests before the point where
   the stream ends or breaks are served ([served ...]) and then the continuation below decides how the
   connection ends -- nothing after that point is served. *)
From Coq Require Import Lia.
From TM Require Import Base Pdu Framed Server FramedProofs ServerProofs AcceptProofs EndToEnd PartialFrame.

(* peer closes on a frame boundary: silent end *)
Theorem C14_clean_close : forall p m fuel rd w svc tl,
  process (S fuel) p m (mkR [] false rd false) w (REof :: tl) svc = [TClosed].
Proof. intros p m fuel rd w svc tl. exact (undecided_then_eof p m fuel rd w svc [] tl (Forall_nil _) (undecided_nil p)). Qed.
(* stream ends inside a frame: exactly one report *)
Theorem C14_eof_inside_frame : forall p m fuel rd w svc f i cs tl,
  server_valid p f i -> Forall nonempty cs -> concat cs <> [] -> proper_prefix (concat cs) f ->
  process (S fuel) p m (mkR [] false rd false) w (datas cs ++ REof :: tl) svc = [TReport (KOther 0)].
Proof.
  intros p m fuel rd w svc f i cs tl Hv Hne Hnz Hp. rewrite (undecided_then_eof p m fuel rd w svc cs tl Hne (prefix_undecided _ _ (server_H2 p) f i _ Hv Hp)).
  destruct (concat cs); [congruence|reflexivity].
Qed.
(* read error on a boundary or inside a frame: exactly one report *)
Theorem C14_read_error : forall p m fuel rd w svc k tl,
  process (S fuel) p m (mkR [] false rd false) w (RErr k :: tl) svc = [TReport k].
Proof. intros p m fuel rd w svc k tl. exact (undecided_then_error p m fuel rd w svc [] tl (Forall_nil _) (undecided_nil p) k). Qed.
Theorem C14_read_error_inside_frame : forall p m fuel rd w svc f i cs tl k,
  server_valid p f i -> Forall nonempty cs -> proper_prefix (concat cs) f ->
  process (S fuel) p m (mkR [] false rd false) w (datas cs ++ RErr k :: tl) svc = [TReport k].
Proof.
  intros p m fuel rd w svc f i cs tl k Hv Hne Hp. exact (undecided_then_error p m fuel rd w svc cs tl Hne (prefix_undecided _ _ (server_H2 p) f i _ Hv Hp) k).
Qed.
(* nothing more arrives: the task waits (no report, no end) *)
Theorem C14_idle_waits : forall p m fuel rd w svc, process (S fuel) p m (mkR [] false rd false) w [] svc = [TWaiting].
Proof. exact end_waiting. Qed.
(* a reply that cannot be encoded (oversized): one InvalidInput report, nothing after ([trace_default]
   stops at the first Fail) *)
Theorem C14_oversized_reply_reports : forall p m h r, 253 < rsp_size r -> server_enc p m h (RROk r) = Fail KInvalidInput.
Proof. exact oversized_response_refused. Qed.

(* accept loop: everything before the first stopping event is handled (a task per service, nothing
   for a rejected connection); a failing setup / accept stops with that error, the abort signal with
   Aborted; nothing after it is accepted *)
Theorem C14_accept_loop : forall pre e post,
  forallb (fun x => negb (stops x)) pre = true -> stops e = true ->
  serve (pre ++ e :: post) = (flat_map script_of pre, result_of e post).
Proof. exact serve_split. Qed.
Theorem C14_accept_loop_keeps_listening : forall evs,
  forallb (fun x => negb (stops x)) evs = true -> serve evs = (flat_map script_of evs, SrvListening).
Proof. exact serve_keeps_listening. Qed.
(* error reports of the connections add up: a misbehaving connection does not affect the others *)
Theorem C14_reports_are_per_connection : forall p m a b, serve_reports p m (a ++ b) = serve_reports p m a + serve_reports p m b.
Proof.
  intros p m a b. unfold serve_reports. rewrite map_app, fold_left_app.
  assert (E : forall l x, fold_left N.add l x = x + fold_left N.add l 0).
  { induction l as [|y l IH]; intros x; cbn [fold_left]; [lia|]. rewrite IH, (IH (0 + y)). lia. }
  apply E.
Qed.

(* the abort signal is honoured even while the accept loop is suspended inside a connection setup (on_connected) that
   never completes: serve_until reports Aborted, with the connections accepted before still handed to their tasks *)
Theorem C14_abort_during_hanging_setup : forall pre post1 post2,
  forallb (fun x => negb (stops x)) pre = true ->
  serve (pre ++ AConn SetupHang :: post1 ++ AAbort :: post2) = (flat_map script_of pre, SrvAborted).
Proof.
  intros pre post1 post2 Hpre. rewrite (serve_split pre (AConn SetupHang) (post1 ++ AAbort :: post2) Hpre eq_refl).
  cbn [result_of]. rewrite existsb_app. cbn [existsb is_abort]. rewrite Bool.orb_true_r. reflexivity.
Qed.

(* "the stream ends inside a frame" for ARBITRARY bytes: the bytes received since the last frame boundary form a PARTIAL frame -- the
   decoder has accepted their beginning as the start of a frame announcing more bytes than have arrived (RTU: the request length
   table; TCP: a non-zero MBAP length field, or fewer than 7 bytes) -- whatever those bytes are, also when they contain a complete
   well-formed frame of their own: exactly one report, no service invocation, nothing written *)
Theorem C14_end_inside_partial_frame : forall p m fuel rd w svc cs tl,
  Forall nonempty cs -> concat cs <> [] -> partial_srv p (concat cs) ->
  process (S fuel) p m (mkR [] false rd false) w (datas cs ++ REof :: tl) svc = [TReport (KOther 0)].
Proof.
  intros p m fuel rd w svc cs tl Hne Hnz Hp. rewrite (undecided_then_eof p m fuel rd w svc cs tl Hne (partial_srv_undecided p _ Hp)).
  destruct (concat cs); [congruence|reflexivity].
Qed.
Theorem C14_error_inside_partial_frame : forall p m fuel rd w svc cs tl k,
  Forall nonempty cs -> partial_srv p (concat cs) ->
  process (S fuel) p m (mkR [] false rd false) w (datas cs ++ RErr k :: tl) svc = [TReport k].
Proof.
  intros p m fuel rd w svc cs tl k Hne Hp. exact (undecided_then_error p m fuel rd w svc cs tl Hne (partial_srv_undecided p _ Hp) k).
Qed.
