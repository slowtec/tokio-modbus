(* C03 -- no byte sequence can crash, hang or bloat a decoder, client or server.
   In the model an out-of-range index, a checked arithmetic overflow, a failed debug assertion and
   unreachable!() are all the outcome [Panic] (DPanic / NPanic / CRPanic / TPanic at the higher
   layers), so "never Panic" is "never reads outside the supplied data, never overflows, never
   asserts".  All theorems quantify over ALL byte strings / event scripts / service behaviours. *)
From Coq Require Import Lia.
From TM Require Import Base Frame Pdu RtuCodec TcpCodec Framed Client Server PduDecode FramedProofs ClientProofs
  TypedProofs EndToEnd Totality Histories Slices Codecs BufferBound.

(* the three PDU decoding entry points and the response dispatcher: a value or an error, never a panic *)
Theorem C03_request_pdu_total : forall bs, dec_req bs <> Panic.
Proof. exact dec_req_no_panic. Qed.
Theorem C03_response_pdu_total : forall bs, dec_rsp bs <> Panic.
Proof. exact dec_rsp_no_panic. Qed.
Theorem C03_exception_pdu_total : forall bs, dec_exc bs <> Panic.
Proof. exact dec_exc_no_panic. Qed.
Theorem C03_response_result_pdu_total : forall bs, dec_rsp_pdu bs <> Panic.
Proof. exact dec_rsp_pdu_no_panic. Qed.

(* the four stream decoders: never a panic, the buffer never grows, and an item strictly shrinks it *)
Theorem C03_client_stream_decoder_total : forall p, dec_total (client_dec p).
Proof. exact client_dec_total. Qed.
Theorem C03_server_stream_decoder_total : forall p, dec_total (server_dec p).
Proof. exact server_dec_total. Qed.

(* progress of the framing layer: every return is no panic, never increases
   (buffered bytes + bytes still in the transport script + number of script events), and every
   delivered item strictly decreases it -- so no input makes it loop *)
Theorem C03_framed_progress : forall p evs st bg r st' evs' bg',
  next (server_dec p) st evs bg = (r, st', evs', bg') ->
  r <> NPanic /\ (mu st' evs' <= mu st evs)%nat /\ (forall i, r = NItem i -> (mu st' evs' < mu st evs)%nat).
Proof. intros p. exact (next_total (server_dec p) (server_dec_total p)). Qed.

(* a client call fed arbitrary reply bytes returns a result or keeps waiting: never a panic; the typed
   methods likewise *)
Theorem C03_client_call_never_panics : forall p m st req bg, fst (call p m st req bg) <> CRPanic.
Proof. exact call_no_panic. Qed.
Theorem C03_typed_methods_never_panic : forall p m st req bg,
  is_typed_req req = true -> fst (typed p m st req bg) <> TRErr CRPanic.
Proof. exact typed_no_panic. Qed.
Theorem C03_client_encoder_never_panics : forall p m h r, client_enc p m h r <> Panic.
Proof. exact client_enc_no_panic. Qed.

(* a server connection fed arbitrary bytes, with an arbitrary service and arbitrary write behaviour:
   the loop never panics and terminates within fuel = bytes + events + 2 (it serves, reports or waits) *)
Theorem C03_server_connection_total : forall p m q wq fq svc,
  ~ In TOutOfFuel (serve_conn p m q wq fq svc) /\ ~ In TPanic (serve_conn p m q wq fq svc).
Proof. exact serve_conn_terminates. Qed.

(* bounded buffering of the MBAP layer: once the 7-byte header is there, a frame is taken (or refused)
   as soon as 7 + (length field - 1) <= 65541 bytes are buffered; the layer never asks for more *)
Theorem C03_mbap_frame_bound : forall t1 t2 p1 p2 l1 l2 uid rest b r,
  l1 < 256 -> l2 < 256 -> 65535 <= len rest ->
  adu_decode (t1 :: t2 :: p1 :: p2 :: l1 :: l2 :: uid :: rest) = (b, r) -> r <> DNone.
Proof. exact adu_decode_hdr_bound. Qed.

(* ---- bounded buffering, all decoders, whole connections ----
   the RTU decoders ask for more input only below the longest frame their length tables can announce plus the
   19 bytes one call may drop: 268 + 19 bytes for requests, 65541 + 19 for responses (function 0x18 announces
   a 16-bit byte count) *)
Theorem C03_rtu_request_buffer_bound : forall buf b r, bytes_ok buf = true -> 287 <= len buf ->
  rtu_server_dec buf = (b, r) -> r <> DNone.
Proof. intros buf b r. rewrite rtu_server_dec_eq, <- (server_dec_eq RTU). exact (server_dec_bound RTU buf b r). Qed.
Theorem C03_rtu_response_buffer_bound : forall buf b r, bytes_ok buf = true -> 65560 <= len buf ->
  rtu_client_dec buf = (b, r) -> r <> DNone.
Proof. intros buf b r. rewrite rtu_client_dec_eq, <- (client_dec_eq RTU). exact (client_dec_bound RTU buf b r). Qed.
(* the framing layer over such a decoder: one [next], any script whose read chunks are at most M bytes *)
Theorem C03_framing_layer_buffer_bounded : forall p M evs st bg r st' evs' bg',
  bytes_ok (rbuf st) = true -> sok evs -> chunks_le M evs ->
  rerrored st = false -> rinv (server_bound p) st -> len (rbuf st) < server_bound p + M ->
  next (server_dec p) st evs bg = (r, st', evs', bg') ->
  len (rbuf st') < server_bound p + M /\ (rerrored st' = false -> rinv (server_bound p) st') /\ bytes_ok (rbuf st') = true
  /\ sok evs' /\ chunks_le M evs'.
Proof.
  intros p M. exact (next_bounded (server_dec p) (server_bound p) M (server_bound_pos p) (server_dec_total p)
                       (seg_suf _ _ (server_dec_seg p)) (server_dec_bound p)).
Qed.
(* a server connection, however many requests it serves: the receive buffer stays below one maximal frame
   (65542 bytes TCP, 287 bytes RTU) plus one read chunk *)
Theorem C03_server_connection_buffer_bounded : forall p M n q is st' q',
  sok q -> chunks_le M q -> take_items (server_dec p) n rstate0 q = Some (is, st', q') ->
  len (rbuf st') < server_bound p + M.
Proof.
  intros p M n q is st' q' Hs Hc Ht.
  exact (proj1 (items_bounded (server_dec p) (server_bound p) M (server_bound_pos p) (server_dec_total p)
                  (seg_suf _ _ (server_dec_seg p)) (server_dec_bound p) n rstate0 q is st' q' eq_refl
                  (binv_nil _ M (server_bound_pos p) false false false q Hs Hc) Ht)).
Qed.
(* a client, after ANY history of calls (completed, failed, abandoned), slave changes and disconnects *)
Theorem C03_client_buffer_bounded : forall p m M slave ops, Forall (op_ok M) ops ->
  len (rbuf (rst (run_ops p m (client_new p slave) ops))) < client_bound p + M.
Proof.
  intros p m M slave ops Hok. apply (history_buffer_bounded p m M ops (client_new p slave)); [|exact Hok].
  unfold cinv, clean, sok. cbn. repeat split. pose proof (client_bound_pos p). lia.
Qed.

(* the decoder's record of skipped bytes (written on every resynchronisation step, kept for the life of the connection):
   at most 256 entries after ANY sequence of decoder calls, whatever each dropped and however it ended.  Nothing a decoder
   returns depends on the record -- [decode_loop] does not take it.  (Tied to the code only through the heap meter: sustained
   noise must not make live memory grow.) *)
Theorem C03_skip_record_bounded : forall (calls : list (list N * dres (N * list N))) rec, len rec <= MAX_FRAME_LEN ->
  len (fold_left (fun rc c => record_after rc (fst c) (snd c)) calls rec) <= MAX_FRAME_LEN.
Proof.
  apply (fold_left_inv _ (fun rec => len rec <= MAX_FRAME_LEN)). intros rec c. apply record_after_bounded.
Qed.

(* non-vacuity of the buffer-bound hypotheses: a fresh connection satisfies them, and so does a script of short reads *)
Example C03_bound_hypotheses_hold : rinv (server_bound RTU) rstate0 /\ len (rbuf rstate0) < server_bound RTU + 16
  /\ sok [RData [1; 2; 3]; RPend; RData [4]] /\ chunks_le 16 [RData [1; 2; 3]; RPend; RData [4]]
  /\ Forall (op_ok 16) [OCall false (ReqReadCoils 1 1) None [] [] [RData [1; 2]]; OSlave 3].
Proof.
  split; [intros _; reflexivity|]. split; [reflexivity|]. split; [reflexivity|].
  split; [cbn; lia|].
  constructor; [split; [reflexivity|cbn; lia]|]. constructor; [exact I|constructor].
Qed.
