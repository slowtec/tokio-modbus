(* C18 -- concurrent connections are served independently.
   PARTIAL by nature: the quantifier over interleavings is discharged in the model, where a server is a
   family of per-connection machines; that the Rust tasks share no state is supported by inspection
   and by the concurrent exploration of the harness, not by this proof. *)
From TM Require Import Base Server AcceptProofs ServerTrace.

(* after any schedule (global arrival order of per-connection events) a connection has received
   exactly its own events in its own order *)
Theorem C18_projection : forall s c, grun s c = events_of c s.
Proof. exact grun_projection. Qed.
(* a step of another connection does not touch this one *)
Theorem C18_frame : forall g e c, fst e <> c -> gstep g e c = g c.
Proof. intros g e c H. unfold gstep. destruct (N.eqb_spec (fst e) c); [contradiction|reflexivity]. Qed.
(* non-interference: two schedules that agree on c's own events give c the same trace (replies on its
   own connection, in its own request order -- C07), whatever the other connections do *)
Theorem C18_noninterference : forall p m svc s1 s2 c,
  events_of c s1 = events_of c s2 -> conn_trace p m svc s1 c = conn_trace p m svc s2 c.
Proof. intros p m svc s1 s2 c H. unfold conn_trace. rewrite !grun_projection, H. reflexivity. Qed.
(* one service instance per accepted connection, in accept order *)
Theorem C18_factory_once : forall evs,
  forallb (fun x => negb (stops x)) evs = true ->
  length (fst (serve evs)) = length (filter (fun e => match e with AConn (SetupService _) => true | _ => false end) evs).
Proof.
  intros evs H. rewrite (serve_keeps_listening evs H). cbn [fst]. clear H.
  induction evs as [|x evs IH]; [reflexivity|].
  destruct x as [[q| |k|]|k|]; cbn [flat_map script_of app filter length]; rewrite IH; reflexivity.
Qed.

(* the same with every connection on a transport of its own that may accept the replies in pieces, stay pending or fail
   (write script [wqs c], flush script [fqs c]): the other connections' traffic, however interleaved, does not change c's trace ... *)
Theorem C18_noninterference_any_transport : forall p m svc wqs fqs s1 s2 c,
  events_of c s1 = events_of c s2 -> conn_trace_w p m svc wqs fqs s1 c = conn_trace_w p m svc wqs fqs s2 c.
Proof. exact noninterference_w. Qed.
(* ... and that trace has the C07 shape for ARBITRARY bytes on every connection: each invocation of c's own service instance is
   followed at once by exactly one reply frame encoded under that request's header (or by nothing when the service declines), the
   last one possibly cut short by a failing write -- so what c receives is its own replies in its own request order *)
Theorem C18_every_connection_trace : forall p m svc wqs fqs s c, Trace p m (svc c) (conn_trace_w p m svc wqs fqs s c).
Proof. exact every_connection_trace. Qed.
Theorem C18_every_connection_receives_reply_frames : forall p m svc wqs fqs s c,
  exists fs last, is_prefix (written (conn_trace_w p m svc wqs fqs s c)) (concat fs ++ last)
    /\ (forall f, In f (fs ++ [last]) -> f = [] \/ exists h rr, server_enc p m h rr = Val f).
Proof. exact every_connection_written. Qed.
Theorem C18_default_transport : forall p m svc s c, conn_trace_w p m svc (fun _ => []) (fun _ => []) s c = conn_trace p m svc s c.
Proof. exact conn_trace_w_default. Qed.
