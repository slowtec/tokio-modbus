(* ObC04.v -- the constants of calc_crc as written in the Rust source (initial register 0xFFFF, 8 shifts per byte,
   reflected polynomial 0xA001, final rotation by 8 bits = byte swap) are the ones model/Crc.v uses. *)
From TM Require Import Base Crc Generated.

Theorem gen_crc_constants_are_model : gen_CRC = (0xFFFF, 8, 0xA001, 8).
Proof. reflexivity. Qed.
(* the model with exactly these constants: register initialised to the first, [step1] xors the third after a right shift,
   [step8] is eight steps, [calc_crc] swaps the two bytes *)
Theorem model_crc_uses_them : forall d, crc_reg d = crc_fold (fst (fst (fst gen_CRC))) d.
Proof. reflexivity. Qed.
Theorem model_step_uses_poly : forall c, step1 c = if N.odd c then N.lxor (N.shiftr c 1) (snd (fst gen_CRC)) else N.shiftr c 1.
Proof. reflexivity. Qed.

(* every RTU frame the code transmits is `slave, PDU, CRC(slave, PDU)`: the two RTU frame encoders regenerated from the source
   have the model's normal form (the CRC is computed from the frame's own first byte, after slave id and PDU have been written) *)
From TM Require Import Tables.
Theorem gen_rtu_client_frame_is_model : compile_frame gen_rtu_client_frame false false false = Some rtu_frame_toks.
Proof. vm_compute. reflexivity. Qed.
Theorem gen_rtu_server_frame_is_model : compile_frame gen_rtu_server_frame false false false = Some rtu_frame_toks.
Proof. vm_compute. reflexivity. Qed.
