(* ObC08.v -- src/codec/mod.rs against the model.  The coil constants (0xFF00 / 0x0000 in both directions) and the packed size
   formula (n + 7) / 8 are those of the model's bool_to_coil / coil_to_bool / packed_size. *)
From TM Require Import Base Frame Pdu Text DecProg TablesProofs DecProgProofs Generated.

Theorem gen_coil_constants_are_model : gen_COIL = (0xFF00, 0x0000, 0xFF00, 0x0000, 7, 8).
Proof. reflexivity. Qed.
Theorem model_coil_conversions_use_them :
  bool_to_coil true = fst (fst (fst (fst (fst gen_COIL)))) /\ bool_to_coil false = snd (fst (fst (fst (fst gen_COIL))))
  /\ coil_to_bool (snd (fst (fst (fst gen_COIL)))) = Val true /\ coil_to_bool (snd (fst (fst gen_COIL))) = Val false
  /\ forall (bs : list bool), packed_size bs = (len bs + snd (fst gen_COIL)) / snd gen_COIL.
Proof. repeat split; reflexivity. Qed.

(* decode_request_pdu_bytes / decode_response_pdu_bytes regenerated from the source as read programs: per function code the same
   cursor reads, checks, loops and variant as the model's programs; no arm for any other code; the Custom limit and the error
   kinds of the two size checks.  Hence, for EVERY byte string, interpreting the code's program is dec_req / dec_rsp, the
   decoders the C08 theorems are about. *)
Theorem gen_req_dec_prog_is_model : expand_arms gen_req_dec_prog = expand_arms req_dec_prog_model.
Proof. apply map_bytes256. vm_compute. reflexivity. Qed.
Theorem gen_rsp_dec_prog_is_model : expand_arms gen_rsp_dec_prog = expand_arms rsp_dec_prog_model.
Proof. apply map_bytes256. vm_compute. reflexivity. Qed.
Theorem gen_dec_keys_are_bytes : keys_small gen_req_dec_prog = true /\ keys_small gen_rsp_dec_prog = true.
Proof. split; vm_compute; reflexivity. Qed.
Theorem gen_req_custom_below_is_model : gen_req_custom_below = 0x80.
Proof. reflexivity. Qed.
(* check_request_pdu_size fails with InvalidData, check_response_pdu_size with InvalidInput (sic): as chk_req_pdu_size / chk_rsp_pdu_size *)
Theorem gen_chk_kinds_are_model : gen_chk_kinds = (show_kind KInvalidData, show_kind KInvalidInput).
Proof. vm_compute. reflexivity. Qed.

Theorem code_request_decoder_is_dec_req : forall bs, run_req_dec gen_req_dec_prog gen_req_custom_below bs = dec_req bs.
Proof.
  intros bs. apply run_req_dec_is_dec_req; [exact gen_req_dec_prog_is_model|apply gen_dec_keys_are_bytes|exact gen_req_custom_below_is_model].
Qed.
Theorem code_response_decoder_is_dec_rsp : forall bs, run_rsp_dec gen_rsp_dec_prog bs = dec_rsp bs.
Proof. intros bs. apply run_rsp_dec_is_dec_rsp; [exact gen_rsp_dec_prog_is_model|apply gen_dec_keys_are_bytes]. Qed.

(* The exception-response helpers (ExceptionResponse::try_from, ResponsePdu::try_from, encode_exception_response_pdu,
   response_result_pdu_size, encode_response_result_pdu) have the shapes of the model's dec_exc / dec_rsp_pdu / enc_exc /
   rr_size_chk / enc_rr, with these constants: exception function codes start at 0x80 (decode guard, decode offset, dispatch limit, encode
   assertion, encode offset) and an exception PDU has 2 bytes. *)
Theorem gen_exception_constants_are_model : gen_EXC = (0x80, 0x80, 0x80, 0x80, 0x80, 2).
Proof. reflexivity. Qed.
Theorem model_exception_decoding_uses_them : forall f c rest,
  dec_exc (f :: c :: rest) = (if f <? fst (fst (fst (fst (fst gen_EXC)))) then Fail KInvalidData
                              else Val {| exr_function := fc_new (f - snd (fst (fst (fst (fst gen_EXC))))); exr_exception := ex_new c |})
  /\ dec_rsp_pdu (f :: c :: rest) = (if f <? snd (fst (fst (fst gen_EXC))) then r <- dec_rsp (f :: c :: rest) ;; Val (RROk r)
                                     else e <- dec_exc (f :: c :: rest) ;; Val (RRExc e)).
Proof. intros. split; reflexivity. Qed.
Theorem model_exception_encoding_uses_them : forall m e,
  rr_size_chk (RRExc e) = Val (snd gen_EXC)
  /\ enc_rr m (RRExc e) = enc_exc m e
  /\ (fc_value (exr_function e) < snd (fst (fst gen_EXC)) ->
      enc_exc m e = Val [fc_value (exr_function e) + snd (fst gen_EXC); ex_value (exr_exception e)]).
Proof.
  intros m e. repeat split. intros H. unfold enc_exc. cbn in H.
  destruct (N.leb_spec 128 (fc_value (exr_function e))) as [Hge|_]; [exfalso; apply (N.lt_irrefl 128); eapply N.le_lt_trans; eassumption|reflexivity].
Qed.
