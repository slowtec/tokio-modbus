(* ObC06.v -- in Client::call of both clients the reply's HEADER is verified before its function code, both after the one receive and
   before the result is mapped (see ObC12.v for the whole order), as [classify] in the model does. *)
From TM Require Import TypedTab Generated.
Theorem gen_tcp_call_is_model : call_shape_ok gen_tcp_call = true.
Proof. vm_compute. reflexivity. Qed.
Theorem gen_rtu_call_is_model : call_shape_ok gen_rtu_call = true.
Proof. vm_compute. reflexivity. Qed.
