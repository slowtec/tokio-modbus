(* TypedTab.v -- the typed client methods (impl Reader / Writer for Context in src/client/mod.rs) as a TABLE: per method the
   request variant it issues (its parameters in order), the response variant it accepts, and how it post-processes the reply
   (expect_coils / expect_words with the requested count, expect_echo of request fields against reply fields).  Regenerated from
   the source by tools/translate.py; proofs/TablesProofs.v ties the model's table to typed_post. *)
From Coq Require Import String.
From TM Require Import Base Frame Pdu Framed Client Text Tables.

Inductive efield := EF (i : nat) | EFLen (i : nat).   (* request field i / the length of request field i (`let cnt = x.len()`) *)
Inductive post_rule :=
| PRCoils (cnt : nat)                 (* expect_coils(reply field 0, request field cnt)  *)
| PRWords (cnt : nat)                 (* expect_words(reply field 0, request field cnt)  *)
| PREcho (pairs : list (efield * nat)).    (* expect_echo((request fields ..), (reply fields ..)) *)
Definition typed_row := (list N * (list N * post_rule))%type.      (* request variant, response variant, rule *)
Definition typed_table := list typed_row.

Fixpoint lookup_typed (t : typed_table) (n : list N) : option (list N * post_rule) :=
  match t with
  | [] => None
  | (n', r) :: t' => if leqb n n' then Some r else lookup_typed t' n
  end.
Definition expand_typed (t : typed_table) : list (option (list N * post_rule)) := map (lookup_typed t) variant_names.

Definition ef_val (fs : list fval) (e : efield) : option fval :=
  match e with
  | EF i => nth_error fs i
  | EFLen i => match nth_error fs i with
               | Some (FvBits l) => Some (FvN (len l)) | Some (FvWords l) => Some (FvN (len l)) | Some (FvBytes l) => Some (FvN (len l))
               | _ => None
               end
  end.
Definition fv_same (a b : option fval) : bool :=
  match a, b with
  | Some (FvN x), Some (FvN y) => x =? y
  | Some (FvB x), Some (FvB y) => Bool.eqb x y
  | _, _ => false
  end.

Definition apply_post (rule : post_rule) (qf rf : list fval) : typed_result :=
  match rule with
  | PRCoils c =>
      match nth_error qf c, nth_error rf 0 with
      | Some (FvN q), Some (FvBits bs) => if len bs <? q then TRErr (CRTransport KInvalidData) else TRBits (firstn (N.to_nat q) bs)
      | _, _ => TRErr CRPanic
      end
  | PRWords c =>
      match nth_error qf c, nth_error rf 0 with
      | Some (FvN q), Some (FvWords ws) => if len ws =? q then TRWords ws else TRErr (CRTransport KInvalidData)
      | _, _ => TRErr CRPanic
      end
  | PREcho pairs => echo (forallb (fun p => fv_same (ef_val qf (fst p)) (nth_error rf (snd p))) pairs)
  end.

(* the reply of another variant than the method expects: unreachable!() *)
Definition typed_post_by (t : typed_table) (req : request) (r : response) : typed_result :=
  match lookup_typed t (req_variant req) with
  | Some (rv, rule) => if leqb (rsp_variant r) rv then apply_post rule (req_fields req) (rsp_fields r) else TRErr CRPanic
  | None => TRErr CRPanic
  end.

Local Open Scope string_scope.
Definition typed_table_model : typed_table :=
  [(s2l "ReadCoils", (s2l "ReadCoils", PRCoils 1)); (s2l "ReadDiscreteInputs", (s2l "ReadDiscreteInputs", PRCoils 1));
   (s2l "ReadInputRegisters", (s2l "ReadInputRegisters", PRWords 1)); (s2l "ReadHoldingRegisters", (s2l "ReadHoldingRegisters", PRWords 1));
   (s2l "ReadWriteMultipleRegisters", (s2l "ReadWriteMultipleRegisters", PRWords 1));
   (s2l "WriteSingleCoil", (s2l "WriteSingleCoil", PREcho [(EF 0, 0); (EF 1, 1)]%nat));
   (s2l "WriteMultipleCoils", (s2l "WriteMultipleCoils", PREcho [(EF 0, 0); (EFLen 1, 1)]%nat));
   (s2l "WriteSingleRegister", (s2l "WriteSingleRegister", PREcho [(EF 0, 0); (EF 1, 1)]%nat));
   (s2l "WriteMultipleRegisters", (s2l "WriteMultipleRegisters", PREcho [(EF 0, 0); (EFLen 1, 1)]%nat));
   (s2l "MaskWriteRegister", (s2l "MaskWriteRegister", PREcho [(EF 0, 0); (EF 1, 1); (EF 2, 2)]%nat))].

(* the blocking client: each method drives the async method of the same name with its own parameters in order, under the
   context's timeout *)
Definition sync_row := (list N * (list N * bool))%type.          (* blocking method, async method called, parameters passed on in order *)
Definition sync_ok (t : list sync_row) (names : list (list N)) : bool :=
  list_eqb leqb (map fst t) names && forallb (fun r => leqb (fst r) (fst (snd r)) && snd (snd r)) t.
Definition sync_methods : list (list N) :=
  map s2l ["call"; "read_coils"; "read_discrete_inputs"; "read_input_registers"; "read_holding_registers"; "read_write_multiple_registers";
           "write_single_register"; "write_multiple_registers"; "write_single_coil"; "write_multiple_coils"; "masked_write_register"].

(* ---- Client::call (service/tcp.rs and service/rtu.rs have the same one) as the sequence of its statements ---- *)
Inductive ctok := KFc | KAdu | KHdr | KFramed | KClear | KSend | KNext | KSplit | KSplit2 | KVerifyHdr | KFcOf | KVerifyFc | KMapExc.
Definition ctok_eqb (a b : ctok) : bool :=
  match a, b with
  | KFc, KFc | KAdu, KAdu | KHdr, KHdr | KFramed, KFramed | KClear, KClear | KSend, KSend | KNext, KNext | KSplit, KSplit
  | KSplit2, KSplit2 | KVerifyHdr, KVerifyHdr | KFcOf, KFcOf | KVerifyFc, KVerifyFc | KMapExc, KMapExc => true
  | _, _ => false
  end.
(* the statements that do something (take the id, check the connection, clear, send, receive, verify, map) in order; the pure `let`s
   between them may move *)
Definition effectful (t : ctok) : bool := match t with KFc | KHdr | KSplit | KSplit2 | KFcOf => false | _ => true end.
Definition call_order (p : list ctok) : list ctok := filter effectful p.
Definition call_prog_model : list ctok :=
  [KFc; KAdu; KHdr; KFramed; KClear; KSend; KNext; KSplit; KSplit2; KVerifyHdr; KFcOf; KVerifyFc; KMapExc].
(* what the model's [call] does, in this vocabulary: the transaction id is taken BEFORE the connection check (KAdu before KFramed), the
   receive buffer is cleared after the connection check and before the send, one send, one receive (an error consumes the framing
   layer's end-of-stream marker; no item = BrokenPipe; not connected = NotConnected), the header is verified before the function code,
   the exception is mapped last *)
Definition call_order_model : list ctok := [KAdu; KFramed; KClear; KSend; KNext; KVerifyHdr; KVerifyFc; KMapExc].
Definition call_shape_ok (g : list ctok * (list N * list N)) : bool :=
  list_eqb ctok_eqb (call_order (fst g)) call_order_model
  && forallb (fun t => Nat.eqb (length (filter (ctok_eqb t) (fst g))) 1) [KFc; KHdr; KSplit; KSplit2; KFcOf]
  && leqb (fst (snd g)) (s2l "BrokenPipe") && leqb (snd (snd g)) (s2l "NotConnected").
